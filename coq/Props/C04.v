(* Props/C04.v — C04: concurrent gets, sets and deletes are linearizable and never panic or hang.
   Model: Conc/StoreLTS.v, an interleaving model of put / get / delete on the active data file at the
   granularity at which the code's steps are visible to other threads (mutex, partial records — a
   record's bytes appear in the file in arbitrary increments —, KeyDir publish and lookup, per-reader
   mapped lengths, the bounded reader pool, the remap rule of LogReader::at).
   A second interleaving model (Conc/MergeLTS.v) covers gets against a running merge pass: the merge
   holds the writer mutex throughout, readers keep the DashMap guard of their entry until they have
   read the value, the merge loop copies and re-points entry by entry under the entry's lock and
   unlinks afterwards.  A third (Conc/RollLTS.v) covers puts and deletes that replace the active file
   against gets with per-file mappings: the writer appends, may create the next file and make it the
   active one, and only then publishes; a reader opens a file at first use and renews a mapping that
   does not cover the record.  Partial: the three models are not composed into one; the mutex, DashMap
   shard atomicity and mmap coherence are assumed as modelled. *)
From Coq Require Import List Arith.
Import ListNotations.
From BC Require Import Conc.Lin Conc.StoreLTS Conc.StoreSafe Conc.StoreLin Conc.StoreLive.
From BC Require Conc.MergeLTS Conc.MergeSafe Conc.RollLTS Conc.RollSafe Conc.RollLin.
From Coq Require Import Lia.

(* 1. No schedule makes any thread panic: whatever the interleaving and however the bytes of a record
      trickle into the file, the slice a get takes of its mapping is in range. *)
Theorem C04_no_panic : forall cap es s t, lrun rule_fixed (linit cap) es = Some s -> thr s t <> PPanicked.
Proof. exact no_panic. Qed.
Print Assumptions C04_no_panic.

(* 2. Every schedule is linearizable: the instrumented history is accepted by the commit-point
      monitor (every operation returns what the map specification computes at its commit), the commit
      order replays sequentially to the final abstract map reproducing every result, contains every
      operation that has returned, and puts an operation after all that returned before its invocation. *)
Theorem C04_linearizable : forall cap es s,
  lrun rule_fixed (linit cap) es = Some s ->
  exists m, Lin.mrun _ _ _ mspec res_eqb (Lin.minit _ _ _ (fun _ => None)) (project (linit cap) es) = Some m /\
    ghost _ _ _ m = gmap s /\
    replay _ _ _ mspec res_eqb (fun _ => None) (lin _ _ _ m) = (gmap s, true) /\
    (forall id, In id (returned _ _ _ m) -> In id (ids_of _ _ (lin _ _ _ m))) /\
    (forall id rs a l1 l2, In (id, rs) (before _ _ _ m) -> In a rs -> ids_of _ _ (lin _ _ _ m) = l1 ++ id :: l2 -> In a l1).
Proof. exact every_schedule_linearizable. Qed.
Print Assumptions C04_linearizable.

(* 3. Readers are never lost: pool + readers held by threads = capacity, in every reachable state;
      so once no get is in progress the pool is full again. *)
Theorem C04_pool_conserved : forall cap ts es s,
  NoDup ts -> Forall (fun e => In (ev_thread e) ts) es -> lrun rule_fixed (linit cap) es = Some s ->
  length (pool s) + hsum (thr s) ts = cap.
Proof. exact pool_conserved. Qed.
Print Assumptions C04_pool_conserved.

(* 4. No hang: in every reachable state in which some thread has an operation in progress, some step
      of the model is enabled.  The step may be any thread's, the invocation of a new operation
      included, so the statement is weaker than "an operation in progress can advance"; the proof
      (Conc/StoreLive.v, [enabled_somewhere]) exhibits a step of that thread itself or, where it
      waits for the mutex or for a reader, of a thread that holds one. *)
Theorem C04_no_deadlock : forall cap ts es s t,
  0 < cap -> NoDup ts -> Forall (fun e => In (ev_thread e) ts) es -> lrun rule_fixed (linit cap) es = Some s ->
  thr s t <> PIdle -> exists e s', lstep rule_fixed s e = Some s'.
Proof. exact no_deadlock. Qed.
Print Assumptions C04_no_deadlock.

(* 5. The theorem is about the repaired code: with the pinned remap rule (D3) an explicit schedule
      panics a get and loses the only reader; the same schedule is fine with the repaired rule. *)
Theorem C04_pinned_rule_refuted :
  exists s, lrun rule_pinned (linit 1) d3_schedule = Some s /\ thr s 1 = PPanicked /\ pool s = [].
Proof. exact pinned_rule_panics. Qed.
Print Assumptions C04_pinned_rule_refuted.

(* 6. Gets against a merge pass, for every schedule: no get reads from a file that was unlinked, every
      get returns the value the abstract map held at its lookup, and the merge never changes the
      abstract map.  [J T s]: index entries point at existing records, readers hold what the index says
      (true of every quiescent state: J_init); [run_ok]: a merge starts with a work list that covers
      every index entry lying in a selected file. *)
Theorem C04_gets_vs_merge : forall T es s s', MergeSafe.J T s -> MergeSafe.run_ok T s es -> MergeLTS.mrun T true s es = Some s' ->
  (forall t, MergeLTS.readers s' t <> MergeLTS.RFailed) /\
  (forall t k v c, MergeLTS.readers s' t = MergeLTS.RDone k v c -> v = MergeLTS.gmap s k) /\
  (forall k, MergeLTS.gmap s' k = MergeLTS.gmap s k).
Proof. exact MergeSafe.merge_vs_gets. Qed.
Print Assumptions C04_gets_vs_merge.

(* 7. ... and it is the guard that does it: when the reader drops it after the lookup, an explicit
      schedule makes a get read an unlinked file (the shape of seeded change C04-A / C01-B). *)
Theorem C04_unguarded_reader_refuted :
  exists s, MergeLTS.mrun 1 false MergeSafe.demo_state MergeSafe.demo_schedule = Some s /\ MergeLTS.readers s 0 = MergeLTS.RFailed.
Proof. exact MergeSafe.unguarded_reader_fails. Qed.
Print Assumptions C04_unguarded_reader_refuted.

(* 8. Puts and deletes that replace the active file against gets, for every schedule (Conc/RollLTS.v: the writer
      appends a record or a tombstone, may create the next file and make it the active one, and only then publishes; a reader
      opens a file it has not touched, and renews a mapping that does not cover the record): no reader
      finds a file missing or a record outside its mapping, every finished get holds the value of the
      abstract map at its lookup, and every index entry points at an existing put record (never at a tombstone). *)
Theorem C04_rollover_vs_gets : forall es s, RollLTS.rrun true RollLTS.rinit es = Some s ->
  (forall t, RollLTS.rreaders s t <> RollLTS.GFailed) /\
  (forall t k v c, RollLTS.rreaders s t = RollLTS.GDone k v c -> v = c) /\
  (forall k f p, RollLTS.ridx s k = Some (f, p) -> exists v, RollSafe.has (RollLTS.rfiles s) f p (Some v)).
Proof. exact RollSafe.rollover_vs_gets. Qed.
Print Assumptions C04_rollover_vs_gets.

(* 9. In that model no step of a put waits for a reader: whatever the schedule did, the writer's next
      step is enabled (the next file can always be created).  Conc/RollLTS.v has no lock between
      publication and the readers, so this says that the active file exists and the next id is free. *)
Theorem C04_writer_never_blocked : forall es s, RollLTS.rrun true RollLTS.rinit es = Some s ->
  match RollLTS.wstate s with
  | RollLTS.WIdle => forall k v, RollLTS.rstep true s (RollLTS.WAppend k v) <> None
  | RollLTS.WAppended _ _ | RollLTS.WAppendedDel _ => RollLTS.rstep true s RollLTS.WRoll <> None /\ RollLTS.rstep true s RollLTS.WPublish <> None
  | RollLTS.WDone _ => RollLTS.rstep true s RollLTS.WReturn <> None
  end.
Proof. exact RollSafe.writer_never_blocked. Qed.
Print Assumptions C04_writer_never_blocked.

(* 9b. ... and every schedule of that model is linearizable: the monitor of Conc/Lin.v accepts its history (puts
       commit when the index entry is published, after the rollover; gets at the lookup), so the commit order
       replays from the empty map to the map the index denotes, reproduces every result, contains every returned
       operation and respects real time. *)
Theorem C04_rollover_linearizable : forall es s, RollLTS.rrun true RollLTS.rinit es = Some s ->
  exists m, Lin.mrun _ _ _ RollLin.rspec RollLin.rres_eqb (Lin.minit _ _ _ (fun _ => None)) (RollLin.project RollLTS.rinit es) = Some m /\
    (forall k, Lin.ghost _ _ _ m k = RollLTS.rgmap s k) /\
    Lin.replay _ _ _ RollLin.rspec RollLin.rres_eqb (fun _ => None) (Lin.lin _ _ _ m) = (Lin.ghost _ _ _ m, true) /\
    (forall id, In id (Lin.returned _ _ _ m) -> In id (Lin.ids_of _ _ (Lin.lin _ _ _ m))) /\
    (forall id rs a l1 l2, In (id, rs) (Lin.before _ _ _ m) -> In a rs -> Lin.ids_of _ _ (Lin.lin _ _ _ m) = l1 ++ id :: l2 -> In a l1).
Proof. exact RollLin.roll_schedules_linearizable. Qed.
Print Assumptions C04_rollover_linearizable.

(* 10. ... and it is the renewal that does it: a reader that keeps the mapping it made fails on the record
       of a later put (the shape of the seeded changes that drop the remap). *)
Theorem C04_no_renewal_refuted :
  exists s, RollLTS.rrun false RollLTS.rinit RollSafe.stale_schedule = Some s /\ RollLTS.rreaders s 0 = RollLTS.GFailed.
Proof. exact RollSafe.no_renewal_fails. Qed.
Print Assumptions C04_no_renewal_refuted.

Example C04_example :
  exists s, lrun rule_fixed (linit 1) d3_schedule = Some s /\ thr s 1 = PGRead 150 (Some 20).
Proof. exact fixed_rule_same_schedule. Qed.

(* Non-vacuity of 6: a quiescent state satisfies the invariant; with the guard kept, the merge waits
   for the reader, then re-points and unlinks, and a later get reads the copy. *)
Example C04_merge_example :
  MergeSafe.J 1 MergeSafe.demo_state /\
  MergeLTS.mrun 1 true MergeSafe.demo_state [MergeLTS.RLookup 0 1; MergeLTS.MStart [0] [1] 5; MergeLTS.MCopy] = None /\
  exists s, MergeLTS.mrun 1 true MergeSafe.demo_state
              [MergeLTS.RLookup 0 1; MergeLTS.MStart [0] [1] 5; MergeLTS.RRead 0; MergeLTS.MCopy; MergeLTS.MCopyEnd; MergeLTS.MUnlink; MergeLTS.MEnd;
               MergeLTS.RReturn 0; MergeLTS.RLookup 0 1; MergeLTS.RRead 0] = Some s /\
            MergeLTS.readers s 0 = MergeLTS.RDone 1 (Some 7) (Some 7) /\ MergeLTS.files s 0 = None.
Proof.
  split.
  { apply MergeSafe.J_init; [|reflexivity|reflexivity]. intros k loc H. unfold MergeSafe.demo_state in H. cbn [MergeLTS.idx] in H.
    destruct (Nat.eqb k 1); [|discriminate]. inversion H; subst. exists [MergeLTS.mkMRec 1 7]. cbn. split; [reflexivity|lia]. }
  exact MergeSafe.guarded_merge_waits.
Qed.

(* Non-vacuity of 8: a schedule with a rollover between append and publication, two readers, one of
   them holding a mapping of the old file. *)
Example C04_rollover_example :
  exists s, RollLTS.rrun true RollLTS.rinit RollSafe.roll_schedule = Some s /\
            RollLTS.rreaders s 0 = RollLTS.GDone 1 (Some 11) (Some 11) /\ RollLTS.rreaders s 1 = RollLTS.GDone 2 None None /\ RollLTS.ractive s = 1.
Proof. exact RollSafe.roll_schedule_runs. Qed.
