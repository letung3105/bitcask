(* Props/C16.v — C16: graceful shutdown terminates, keeps acknowledged data, and tears no reply.
   Model: Sys/Shutdown.v (Server::run's select, the broadcast drop, the handler loop, the completion
   channel).  tokio's select!, broadcast and mpsc semantics are modelled, not verified: partial.
   One recorded finding (known_findings.json): a handler blocked writing a reply to a client that
   does not read keeps run from returning ([C16_known_refuted]). *)
From Coq Require Import List Arith.
Import ListNotations.
From BC Require Import Sys.Shutdown.

(* 1. Every reply a client has received belongs to an operation the store has already applied:
      a reply is emitted only after its store operation returned. *)
Theorem C16_acked_applied : forall es s s' c, sys_ok s -> run s es = Some s' -> In c (conns s') -> replied c <= applied c.
Proof. exact replies_follow_store. Qed.
Print Assumptions C16_acked_applied.

(* 2. No torn reply.  In the model a reply becomes visible whole (one event per complete reply) and
      a handler leaves only at the select between two commands, never inside one: these are modelling
      decisions (a store operation or a write that fails half-way is not modelled).  Under them, a
      handler that has ended has written a reply for every operation it applied. *)
Theorem C16_replies_whole : forall es s s' c, sys_ok s -> run s es = Some s' -> In c (conns s') -> hs c = HEnded ->
  replied c = applied c.
Proof. exact ended_means_all_replied. Qed.
Print Assumptions C16_replies_whole.

(* 3. Termination is possible: once the signal is out, if no handler is blocked writing to a client
      that does not read, there is a schedule of at most three events per connection plus one, none
      of them a client's action, after which run has returned — whatever each client is doing (idle,
      mid-frame, mid-command).  That every fair schedule returns is not stated. *)
Theorem C16_terminates : forall l, Forall unblocked l ->
  exists es, length es <= 3 * length l + 1 /\
    exists l', run (mkSys Draining l) es = Some (mkSys Returned l') /\ Forall (fun c => hs c = HEnded) l'.
Proof. intros l Hu. exact (can_always_return l [] Hu (Forall_nil _)). Qed.
Print Assumptions C16_terminates.

(* 4. The recorded finding, as a theorem about the model: while some handler is blocked in a write
      to a client that never reads, run does not return, for every continuation. *)
Theorem C16_known_refuted : forall es s s' i c, ph s <> Returned -> nth_error (conns s) i = Some c -> blocked c ->
  Forall (no_read_of i) es -> run s es = Some s' -> ph s' <> Returned.
Proof. intros es s s' i c Hp En Hb Hes E. exact (proj1 (blocked_never_returns es s s' i (conj Hp (ex_intro _ c (conj En Hb))) Hes E)). Qed.
Print Assumptions C16_known_refuted.

Example C16_example :
  let s0 := mkSys Running [mkConn (HWait 2) 0 0 true; mkConn (HWait 0) 0 0 true] in
  run s0 [StartCmd 0; OpDone 0; Fire; ReplyDone 0; Observe 0; Observe 1; Return]
  = Some (mkSys Returned [mkConn HEnded 1 1 true; mkConn HEnded 0 0 true]).
Proof. reflexivity. Qed.
