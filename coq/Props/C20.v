(* Props/C20.v — C20: a failed disk operation is reported and leaves the store consistent.  A partial proof; the rest
   is decided by the one-fault sweeps of `bin/check C20` (level fault_enumeration).
   Proved: the discipline of file ids that the repair of the writer relies on (1-3, fault-free model); the restart half
   for set / delete / reopen (4); the statistics rows across a failing unlink (5); the running process after a put or
   delete whose append, or whose replacement of the active file, failed (6-8); a put or delete whose fsync failed behind
   the completed append (9); a merge pass that stops because the write of a hint entry failed (10).
   Not proved: what a restart yields after the process has gone on behind a failed fsync or a failed rollover behind a
   completed append (a complete record that is on disk but not in the index), and after a merge pass that failed
   half-way.  For the failed fsync the model's [failed_fsync] is also compared with the real store on every sweep case
   whose fault hit such an fsync. *)
From BC Require Import Store.Engine Store.Log Store.Cons Store.Inv Store.Refine Store.Merge Store.Theorems
  Store.Codec Store.CodecProofs Store.Crash Store.CrashScript Store.CrashMerge Store.FaultUnlink Store.FaultFsync Store.MergeFail Store.FaultMerge Store.FaultContinue Store.FaultBytes.
From Coq Require Import Lia.
Open Scope N_scope.

(* 1. An id is consumed before its file is created: new_active_datafile always uses an id above the
      highest id this writer ever handed out, and creation under an existing name is an error, never
      an overwrite. *)
Theorem C20_new_active_fresh : forall s s' t, new_active s = ROk (s', t) ->
  s_active s' = s_last s + 1 /\ s_last s' = s_last s + 1 /\ s_stale s' = false /\
  dir_get (s_dir s) (s_last s + 1) = None /\ t = [SCreate (FData (s_last s + 1))].
Proof.
  intros s s' t H. destruct (new_active_inv s s' t H) as (Hnone & -> & ->). auto.
Qed.
Print Assumptions C20_new_active_fresh.

(* 2. In every reachable state the writer is not stale, its file exists, is the newest file of the
      directory and has no hint file: an append can never land in a file that a merge produced or
      that does not exist. *)
Theorem C20_writer_file_valid : forall c s, reachable c s ->
  s_stale s = false /\ s_active s = s_last s /\ ids_le (s_dir s) (s_last s) /\
  exists fa, dir_get (s_dir s) (s_active s) = Some fa /\ d_hint fa = None.
Proof.
  intros c s Hr. apply reachable_inv in Hr. destruct (Inv_dir_ok s Hr) as (_ & Hle & _).
  exact (conj (Inv_stale s Hr) (conj (Inv_last s Hr) (conj Hle (Inv_active s Hr)))).
Qed.
Print Assumptions C20_writer_file_valid.

(* 3. A stale writer switches to a fresh file before it appends anything. *)
Theorem C20_stale_writer_rolls_first : forall c s k v s' l t, s_stale s = true ->
  write c s k v = ROk (s', l, t) -> exists t', t = SCreate (FData (s_last s + 1)) :: t' /\ l_fid l = s_last s + 1.
Proof.
  intros c s k v s' l t Hst H. rewrite (write_stale c s k v Hst) in H.
  destruct (new_active s) as [[h t1]| |] eqn:En; try discriminate. destruct (C20_new_active_fresh s h t1 En) as (Ha & _ & Hsth & _ & ->).
  destruct (write c h k v) as [[[s2 l2] t2]| |] eqn:Ew; try discriminate. injection H as _ <- <-.
  exists t2. split; [reflexivity|]. rewrite (write_loc c h k v s2 l2 t2 Hsth Ew). exact Ha.
Qed.
Print Assumptions C20_stale_writer_rolls_first.

(* 4. A failed call has no effect and the error paths of set / delete / reopen issue no further call, so what a
      failed operation leaves on disk is a crash image of its trace (a call boundary; or a record cut inside when
      the failing call is the second write of a record larger than the buffer).  Every such image, opened again,
      reads every earlier operation, and the failed one entirely or not at all (C03).  (For a failed merge pass
      the buffered tail of the merge output may still be written when the writer is dropped: extra bytes in an
      output file that holds copies only; that case is left to the sweep.) *)
Theorem C20_failed_operation_then_restart : forall c ops1 o s0,
  run_ready c init (ops1 ++ [o]) -> rep s0 (s_dir init) -> trace_wf (snd (run c init (ops1 ++ [o]))) ->
  let s1 := fst (fst (run c init ops1)) in
  exists f1, fs_run s0 (snd (run c init ops1)) = Some f1 /\
    forall img, image_of f1 (snd (step c s1 o)) img ->
      img_ok img (abs s1) \/ img_ok img (abs (fst (fst (step c s1 o)))).
Proof. exact crash_during_op. Qed.
Print Assumptions C20_failed_operation_then_restart.

(* the call-boundary case spelled out: failing at the (n+1)-th call leaves the first n calls *)
Theorem C20_fault_at_call_boundary : forall c ops1 o s0 n,
  run_ready c init (ops1 ++ [o]) -> rep s0 (s_dir init) -> trace_wf (snd (run c init (ops1 ++ [o]))) ->
  let s1 := fst (fst (run c init ops1)) in
  exists f1 fn, fs_run s0 (snd (run c init ops1)) = Some f1 /\ fs_run f1 (firstn n (snd (step c s1 o))) = Some fn /\
    (img_ok fn (abs s1) \/ img_ok fn (abs (fst (fst (step c s1 o))))).
Proof. exact fault_then_restart. Qed.
Print Assumptions C20_fault_at_call_boundary.

(* 5. The removal loop of a merge with a failing unlink (the defect the thorough sweep found, repaired
      as e043e9c).  Later merges rest on "a file that holds records has a statistics row", because the
      selection is closed downwards over the files that have rows.  With the repaired order (unlink
      first, forget the row afterwards) that invariant survives a failure of any unlink, and every reachable
      state has it ... *)
Theorem C20_failed_unlink_keeps_rows : forall d x sel j, sorted d -> rows_cover d x ->
  let '(d', x') := failed_unlink false d x sel j in rows_cover d' x'.
Proof. exact unlink_first_keeps_rows. Qed.
Print Assumptions C20_failed_unlink_keeps_rows.

Theorem C20_reachable_states_have_rows : forall s, Inv s -> rows_cover (s_dir s) (s_stats s).
Proof. exact inv_rows_cover. Qed.
Print Assumptions C20_reachable_states_have_rows.

(* ... with the pinned order (row dropped first) it does not: file 0 holds a record and has no row,
   so the next pass can select file 1 (the tombstone) without file 0 (the value). *)
Theorem C20_row_first_refuted :
  let '(d', x') := failed_unlink true ex_dir ex_stats [0; 1] 0 in
  has_file (log_of_dir d') 0 = true /\ sget x' 0 = None /\ sget x' 1 <> None.
Proof. exact row_first_loses_a_file. Qed.
Print Assumptions C20_row_first_refuted.

(* 5b. What "rows cover files" buys, with no invariant of the engine assumed (so also in the states the fault paths leave
       behind): every later selection takes, together with any file, every older file that holds records, so a tombstone
       is never merged away while an older file still holds the value it shadows.  Below it, the instance for the state
       after a failed fsync with the repaired bookkeeping (9c). *)
Theorem C20_rows_make_selection_closed : forall c s sel0, rows_cover (s_dir s) (s_stats s) -> select c s = ROk sel0 ->
  forall id g, mem id sel0 = true -> has_file (log_of_dir (s_dir s)) g = true -> g <= id -> mem g sel0 = true.
Proof. exact rows_make_selection_closed. Qed.
Print Assumptions C20_rows_make_selection_closed.

Theorem C20_selection_closed_after_failed_fsync : forall c s k v s' t sel0, Inv s -> failed_fsync true s k v = ROk (s', t) ->
  select c s' = ROk sel0 ->
  forall id g, mem id sel0 = true -> has_file (log_of_dir (s_dir s')) g = true -> g <= id -> mem g sel0 = true.
Proof. exact selection_closed_after_failed_fsync. Qed.
Print Assumptions C20_selection_closed_after_failed_fsync.

(* 6. The running process after a failed write.  A put or delete issued in invariant state s fails in its append,
      and [n] creates of the next active file fail on top of that (the engine state is then
      [after_failed_creates s clk n]: index and statistics untouched, `stale` set, `last_fileid` advanced by n).
      Whatever script follows (gets, puts, deletes, reopens, clock changes, and merge passes as long as no
      create had failed), every answer is the map's answer over the map of s: the failed operation has not taken
      effect and nothing else was disturbed; and the state is again an invariant state or a faulted one.
      An instance of [run_good] (Store/FaultContinue.v), which starts from any such state. *)
Theorem C20_continue_after_failed_write : forall c s clk n ops, Inv s ->
  grun_ready c (after_failed_creates s clk n) ops ->
  let '(x', rs, _) := run c (after_failed_creates s clk n) ops in
  good x' /\ rs = spec_run (abs s) ops /\ forall k, gabs x' k = spec_final (abs s) ops k.
Proof.
  intros c s clk n ops HI Hr.
  pose proof (run_good c ops _ (abs s) (or_intror (failed_write_faulted s _ clk HI (N.le_add_r _ n))) (fun _ => eq_refl) Hr) as H.
  destruct (run c _ ops) as [[x' rs] t]. rewrite gabs_abs. exact H.
Qed.
Print Assumptions C20_continue_after_failed_write.

(* 7. ... with the write buffer: [r = Some e] when the whole record of the failed operation is still buffered
      (the failing call was the final flush).  The answers are those of the map of s with that operation
      pending ([specr_run]): invisible while the process runs, dropped by the next put, delete or merge (the
      active file is replaced and the buffer discarded), applied by a clean close that comes first (the buffer is
      written out); then, after the restart, the failed operation has taken effect, as the property allows. *)
Theorem C20_continue_after_failed_append : forall c s clk r ops, Inv s ->
  grun_ready_r c (after_failed_append s clk) r ops ->
  let '(x', r', outs, _) := run_r c (after_failed_append s clk) r ops in
  let '(souts, m', p') := specr_run (abs s) (pending r) ops in
  rgood x' r' /\ outs = souts /\ pending r' = p' /\ forall k, gabs x' k = m' k.
Proof.
  intros c s clk r ops HI Hr. pose proof (failed_write_faulted s _ clk HI (N.le_refl _)) as HF.
  pose proof (run_r_good c ops _ r (abs s) (conj (or_intror HF) (fun _ => HF)) (fun _ => eq_refl) Hr) as H.
  destruct (run_r c _ r ops) as [[[x' r'] outs] t]. destruct (specr_run (abs s) (pending r) ops) as [[souts m'] p'].
  rewrite gabs_abs. exact H.
Qed.
Print Assumptions C20_continue_after_failed_append.

(* the first put or delete after the failure replaces the active file and re-establishes the invariant *)
Theorem C20_next_write_heals : forall c x k v, faulted x ->
  exists h t1, new_active x = ROk (h, t1) /\ Inv h /\ (forall k', abs h k' = fabs x k') /\
    step c x (OSet k v) = let '(s2, r, t2) := step c h (OSet k v) in (s2, r, t1 ++ t2).
Proof. intros c x k v HF. exact (step_write_faulted c x (OSet k v) HF I). Qed.
Print Assumptions C20_next_write_heals.

(* 8. The two halves meet.  A put or delete issued in invariant state s fails in its append and leaves the torn record
      [p] behind the active file ([junked]: the file system is the clean one with [p] appended to that file); the
      process goes on (the next put or delete replaces the active file) with any ready script, merge passes and
      reopens included.  Every answer is the map's answer with the failed operation not applied, and what is on disk at
      the end ([fs_run] of all the system calls, on the file system with the junk) reads as a directory that opens to
      exactly the map the process holds: a restart at that point loses nothing and resurrects nothing. *)
Theorem C20_continue_then_restart : forall c s clk k0 v0 ops fc fj p,
  Inv s -> rep fc (s_dir s) -> junked (s_active s) p fj fc -> torn_entry p ->
  let x := after_failed_append s clk in
  run_ready c (fst (fst (step c x (OSet k0 v0)))) ops ->
  trace_wf (snd (run c x (OSet k0 v0 :: ops))) ->
  let '(x', rs, t) := run c x (OSet k0 v0 :: ops) in
  Inv x' /\ rs = spec_run (abs s) (OSet k0 v0 :: ops) /\
  exists fj', fs_run fj t = Some fj' /\ img_ok fj' (abs x').
Proof. intros c s clk k0 v0 ops fc fj p HI Hrep HJ Ht x Hready _. exact (fault_continue_restart c s clk (OSet k0 v0) ops I fc fj p HI Hrep HJ Ht Hready). Qed.
Print Assumptions C20_continue_then_restart.

Theorem C20_continue_then_restart_del : forall c s clk k0 ops fc fj p,
  Inv s -> rep fc (s_dir s) -> junked (s_active s) p fj fc -> torn_entry p ->
  let x := after_failed_append s clk in
  run_ready c (fst (fst (step c x (ODel k0)))) ops ->
  trace_wf (snd (run c x (ODel k0 :: ops))) ->
  let '(x', rs, t) := run c x (ODel k0 :: ops) in
  Inv x' /\ rs = spec_run (abs s) (ODel k0 :: ops) /\
  exists fj', fs_run fj t = Some fj' /\ img_ok fj' (abs x').
Proof. intros c s clk k0 ops fc fj p HI Hrep HJ Ht x Hready _. exact (fault_continue_restart c s clk (ODel k0) ops I fc fj p HI Hrep HJ Ht Hready). Qed.
Print Assumptions C20_continue_then_restart_del.

(* Non-vacuity of 6 and 7: after SET k 1, a SET k 2 fails in its flush.  Reads see 1; a restart that comes first
   applies the buffered record (k reads 2 afterwards); a SET of another key first discards it (k reads 1 after
   the restart). *)
Example C20_pending_example :
  let c := mkCfg 1000 false 0 1 0 1000000000 in
  let s := fst (fst (run c init [OSet [107] [1]])) in
  let e := mkEntry (s_clock s) [107] (Some [2]) in
  Inv s /\
  snd (fst (run_r c (after_failed_append s (s_clock s + 1)) (Some e) [OGet [107]; OReopen; OGet [107]])) = [VVal (Some [1]); VUnit; VVal (Some [2])] /\
  snd (fst (run_r c (after_failed_append s (s_clock s + 1)) (Some e) [OGet [107]; OSet [108] [3]; OReopen; OGet [107]]))
    = [VVal (Some [1]); VUnit; VUnit; VVal (Some [1])] /\
  grun_ready_r c (after_failed_append s (s_clock s + 1)) (Some e) [OGet [107]; OReopen; OGet [107]].
Proof.
  cbv zeta. split.
  { apply run_inv. exact (conj I I). }
  split; [vm_compute; reflexivity|]. split; [vm_compute; reflexivity|]. vm_compute. auto.
Qed.

(* Non-vacuity of 4: the hypotheses hold for a concrete script, and a failing second SET (cut after 9
   bytes of its record) leaves such an image. *)
Example C20_example :
  let c := mkCfg 60 false 0 1 0 1000000000 in
  let ops1 := [OSet [107] [1; 2]] in let o := OSet [107] [3] in
  let s0 : fs := fun f => match f with FData 0 => Some [] | _ => None end in
  run_ready c init (ops1 ++ [o]) /\ rep s0 (s_dir init) /\ trace_wf (snd (run c init (ops1 ++ [o]))) /\
  exists f1 img, fs_run s0 (snd (run c init ops1)) = Some f1 /\ image_of f1 (snd (step c (fst (fst (run c init ops1))) o)) img /\
    img (FData 0) = Some (enc_entry (mkEntry 1 [107] (Some [1; 2])) ++ firstn 9 (enc_entry (mkEntry 2 [107] (Some [3])))).
Proof.
  cbv zeta. split; [cbn; auto|]. split; [intros id; destruct id as [|p]; vm_compute; auto|]. split.
  { repeat constructor; cbn [call_wf]; eexists; (split; [|reflexivity]); unfold Store.CodecProofs.wf_entry, Store.CodecProofs.i64_ok; cbn; repeat split; lia. }
  eexists. eexists. split; [vm_compute; reflexivity|]. split.
  - eapply (img_torn _ _ _ [] (FData 0) (firstn 9 (enc_entry (mkEntry 2 [107] (Some [3])))) (skipn 9 (enc_entry (mkEntry 2 [107] (Some [3]))))).
    + vm_compute. reflexivity.
    + vm_compute. discriminate.
    + cbn [app fs_run fs_step]. reflexivity.
  - vm_compute. reflexivity.
Qed.

(* Non-vacuity of 8: after SET k 12, a SET k 3 fails leaving 9 bytes of its record behind file 0; the process goes on
   with SET k 4, GET k, a merge-free script; the hypotheses hold and the final directory has the junk in place. *)
Example C20_continue_example :
  let c := mkCfg 1000 false 0 1 0 1000000000 in
  let s := fst (fst (run c init [OSet [107] [1; 2]])) in
  let p := firstn 9 (enc_entry (mkEntry 2 [107] (Some [3]))) in
  let fc : fs := fun f => match f with FData 0 => Some (enc_entry (mkEntry 1 [107] (Some [1; 2]))) | _ => None end in
  let fj : fs := fun f => match f with FData 0 => Some (enc_entry (mkEntry 1 [107] (Some [1; 2])) ++ p) | _ => None end in
  Inv s /\ rep fc (s_dir s) /\ junked (s_active s) p fj fc /\ torn_entry p /\
  run_ready c (fst (fst (step c (after_failed_append s 3) (OSet [107] [4])))) [OGet [107]] /\
  exists fj', fs_run fj (snd (run c (after_failed_append s 3) [OSet [107] [4]; OGet [107]])) = Some fj' /\
    fj' (FData 0) = Some (enc_entry (mkEntry 1 [107] (Some [1; 2])) ++ p) /\ fj' (FData 1) = Some (enc_entry (mkEntry 3 [107] (Some [4]))).
Proof.
  cbv zeta. split.
  { apply run_inv. exact (conj I I). }
  split; [intros id; destruct id as [|q]; vm_compute; auto|].
  split; [intros g; destruct g as [[|q]|i]; vm_compute; reflexivity|].
  split.
  { right. exists (mkEntry 2 [107] (Some [3])), (skipn 9 (enc_entry (mkEntry 2 [107] (Some [3])))).
    split; [unfold wf_entry, i64_ok; cbn; repeat split; lia|]. split; [vm_compute; discriminate|]. vm_compute. reflexivity. }
  split; [cbn; auto|].
  eexists. split; [vm_compute; reflexivity|]. split; vm_compute; reflexivity.
Qed.

(* 9. A put or delete whose fsync failed behind the completed append ([failed_fsync], Store/Engine.v; sync=always).
      (a) the running process answers every get as before the failed operation; (b) a restart at that point opens to
      the map with the failed operation applied and every other key unchanged; (c) with the repaired bookkeeping every
      file that holds a record still has a statistics row, so the downward-closed selection of later merges still takes
      it; (d) the pinned bookkeeping loses the row, and (e) the history of the finding
          set a 1; merge; set k v (fsync fails); merge; del k; merge; restart; get k
      answers v in the model with the pinned bookkeeping and nothing with the repaired one. *)
Theorem C20_failed_fsync_invisible : forall fixed s k v s' t, Inv s -> failed_fsync fixed s k v = ROk (s', t) ->
  forall k', get s' k' = ROk (abs s k').
Proof. exact failed_fsync_invisible. Qed.
Print Assumptions C20_failed_fsync_invisible.

Theorem C20_failed_fsync_then_restart : forall fixed s k v s' t, Inv s -> failed_fsync fixed s k v = ROk (s', t) ->
  exists s'' t', reopen s' = ROk (s'', tt, t') /\ Inv s'' /\
    forall k', abs s'' k' = if beq k' k then v else abs s k'.
Proof. exact failed_fsync_then_restart. Qed.
Print Assumptions C20_failed_fsync_then_restart.

Theorem C20_failed_fsync_keeps_rows : forall s k v s' t, Inv s -> failed_fsync true s k v = ROk (s', t) ->
  rows_cover (s_dir s') (s_stats s').
Proof. exact failed_fsync_keeps_rows. Qed.
Print Assumptions C20_failed_fsync_keeps_rows.

Theorem C20_failed_fsync_pinned_loses_row :
  match failed_fsync false ff_before [107] (Some [118]) with
  | ROk (s', _) => has_file (slog s') (s_active s') = true /\ sget (s_stats s') (s_active s') = None
  | _ => False
  end.
Proof. exact pinned_loses_the_row. Qed.
Print Assumptions C20_failed_fsync_pinned_loses_row.

Theorem C20_failed_fsync_pinned_refuted : ff_history false = VVal (Some [118]) /\ ff_history true = VVal None.
Proof. split; [exact pinned_bookkeeping_resurrects|exact repaired_bookkeeping_does_not]. Qed.
Print Assumptions C20_failed_fsync_pinned_refuted.

(* (f) the per-file counters after the failed fsync are still exact with respect to the index (live = entries the index
       points at, dead and dead bytes = all other entries of the file): the record is booked as what it is, one dead entry
       of its size; under the pinned bookkeeping it is in the file and in no counter. *)
Theorem C20_failed_fsync_counters_exact : forall s k v s' t, Inv s -> failed_fsync true s k v = ROk (s', t) ->
  forall g, live (sget0 (s_stats s') g) = nlive (slog s') (s_idx s') g /\
            dead (sget0 (s_stats s') g) = ndead (slog s') (s_idx s') g /\
            dead_bytes (sget0 (s_stats s') g) = bdead (slog s') (s_idx s') g.
Proof. exact failed_fsync_counters_exact. Qed.
Print Assumptions C20_failed_fsync_counters_exact.

Theorem C20_failed_fsync_pinned_counters_refuted :
  match failed_fsync false ff_before [107] (Some [118]) with
  | ROk (s', _) => ndead (slog s') (s_idx s') (s_active s') = 1 /\ dead (sget0 (s_stats s') (s_active s')) = 0
  | _ => False
  end.
Proof. exact pinned_counters_miss_the_record. Qed.
Print Assumptions C20_failed_fsync_pinned_counters_refuted.

(* non-vacuity: the state the history starts from is an invariant state, and the failed fsync is defined on it *)
Example C20_failed_fsync_example : Inv ff_before /\ exists s' t, failed_fsync true ff_before [107] (Some [118]) = ROk (s', t).
Proof. split; [exact ff_before_inv|]. vm_compute. eauto. Qed.

(* 10. A merge pass whose copy loop stops because the write of a hint entry failed ([merge_fail_hint], Store/MergeFail.v).
       A restart reads a merge file through its hint file only; [reach_ok]: every index entry lies in a file that exists
       and, if that file has a hint file, is listed there.  (a) every reachable state satisfies it; (b) with the repaired
       order of the loop a failing hint write — after any number of entries went through, in any pass — keeps it; (c) the
       pinned order breaks it, and (d) the history of the finding
           set K v; set a 1; set a 2; merge (hint write of K fails); merge; restart; get K
       loses K in the model under the pinned order and keeps it under the repaired one. *)
Theorem C20_reachable_states_are_listed : forall s, Inv s -> reach_ok (s_dir s) (s_idx s).
Proof. exact inv_reach_ok. Qed.
Print Assumptions C20_reachable_states_are_listed.

Theorem C20_failed_hint_write_keeps_entries_listed : forall row_first retried c s ord1 k s', reach_ok (s_dir s) (s_idx s) ->
  merge_fail_hint false row_first retried c s ord1 k = ROk s' -> reach_ok (s_dir s') (s_idx s').
Proof. exact hint_first_keeps_reach. Qed.
Print Assumptions C20_failed_hint_write_keeps_entries_listed.

Theorem C20_failed_hint_write_pinned_refuted :
  fm_history true = VVal None /\ fm_history false = VVal (Some [118]) /\
  match merge_fail_hint true true false fm_cfg fm_before [] [75] with
  | ROk s' => exists l f, iget (s_idx s') [75] = Some l /\ dir_get (s_dir s') (l_fid l) = Some f /\ d_hint f = Some []
  | _ => False
  end.
Proof. split; [exact pinned_order_loses_key|]. split; [exact repaired_order_keeps_key|exact pinned_order_breaks_reach]. Qed.
Print Assumptions C20_failed_hint_write_pinned_refuted.

(* (e) the order of the merge file's statistics row and its hint entry: the first repair (97ca669) wrote the hint entry
       first; when the failing write was the first hint write of the pass and std's BufWriter wrote it out on drop, the
       merge file listed a record without having a row, and the history
           set k v; set k w; merge (first hint write fails, written out at drop); del k; merge; restart; get k
       resurrected k — in the model and on the real store; with the row written first (a53a922) it does not. *)
Theorem C20_failed_hint_write_row_first : fm2_history false = VVal (Some [119]) /\ fm2_history true = VVal None.
Proof. split; [exact hint_before_row_resurrects|exact row_before_hint_does_not]. Qed.
Print Assumptions C20_failed_hint_write_row_first.

(* (f) ... in general: [hint_rows] — a file whose hint file lists something has a statistics row — holds in every reachable
       state, and a failing hint write keeps it when the row is written first (pinned code and final repair), whether or not
       the bytes of the hint entry reach the file when the writer is dropped; with the hint entry first it is lost. *)
Theorem C20_reachable_states_have_hint_rows : forall s, Inv s -> hint_rows (s_dir s) (s_stats s).
Proof. exact inv_hint_rows. Qed.
Print Assumptions C20_reachable_states_have_hint_rows.

Theorem C20_failed_hint_write_keeps_rows : forall repoint_first retried c s ord1 k s', hint_rows (s_dir s) (s_stats s) ->
  merge_fail_hint repoint_first true retried c s ord1 k = ROk s' -> hint_rows (s_dir s') (s_stats s').
Proof. exact row_first_keeps_hint_rows. Qed.
Print Assumptions C20_failed_hint_write_keeps_rows.

Theorem C20_hint_before_row_refuted :
  match merge_fail_hint false false true fm_cfg fm2_before [] [107] with
  | ROk s' => exists id f h, dir_get (s_dir s') id = Some f /\ d_hint f = Some [h] /\ sget (s_stats s') id = None
  | _ => False
  end.
Proof. exact hint_before_row_loses_the_row. Qed.
Print Assumptions C20_hint_before_row_refuted.

(* non-vacuity: the history starts from an invariant state and the failing pass is defined on it *)
Example C20_failed_hint_example : Inv fm_before /\ exists s', merge_fail_hint false true false fm_cfg fm_before [] [75] = ROk s'.
Proof. split; [exact fm_before_inv|]. vm_compute. eauto. Qed.
