(* Props/C17.v — C17: a closed store rejects all use and stops its background worker.
   Model: Sys/Close.v.  Thread and descriptor lifetime are runtime behaviour: observed by
   `bin/check C17` (/proc/self/task, /proc/self/fd), not proved: partial.  An operation already past
   its `closed` check when the store is dropped is concurrent with the drop and outside the statement. *)
From Coq Require Import List.
Import ListNotations.
From BC Require Import Store.Engine Store.Inv Store.Refine Store.Theorems Sys.Close.

(* 1. After the owning object is dropped, every operation through any remaining handle — get, set,
      delete, merge, sync — fails with `closed`, changes nothing and issues no system call. *)
Theorem C17_closed_rejects : forall c h o, h_closed (drop_store h) = true /\
  hstep c (drop_store h) o = (drop_store h, HClosed, []).
Proof. intros c h o. split; [reflexivity|]. apply closed_rejects. reflexivity. Qed.
Print Assumptions C17_closed_rejects.

Theorem C17_closed_forever : forall c os h, hrun c (drop_store h) os = (drop_store h, map (fun _ => HClosed) os, []).
Proof. intros c os h. apply closed_forever. reflexivity. Qed.
Print Assumptions C17_closed_forever.

(* 2. The background worker can exit promptly: once the sender is dropped there is a run of at most
      two of its own steps, none of which is a timer tick, that ends in its exit, however far away the
      next timer is.  That the closed channel wins over the timer in the worker's select is not in
      the model, so "must" is not stated. *)
Theorem C17_worker_exits : forall s, sender_alive s = false -> w s <> WExited ->
  exists es, (length es <= 2)%nat /\ Forall (fun e => e <> Tick) es /\ exists s', wrun s es = Some s' /\ w s' = WExited.
Proof. exact worker_exits_promptly. Qed.
Print Assumptions C17_worker_exits.

(* 3. The directory can be opened again at once and reads the same (no lock, nothing left half done):
      the directory of any reachable state opens, and opens to the same contents. *)
Theorem C17_reopen_at_once : forall c s, reachable c s ->
  exists s' t, reopen s = ROk (s', tt, t) /\ Inv s' /\ forall k, abs s' k = abs s k.
Proof.
  intros c s Hr. destruct (reopen_index s (reachable_inv c s Hr)) as (s' & t & H1 & HI & _ & _ & Hlog).
  exists s', t. split; [exact H1|]. split; [exact HI|]. exact (abs_log s s' Hlog).
Qed.
Print Assumptions C17_reopen_at_once.

Example C17_example :
  let h := mkH false init in
  let '(h1, r1, _) := hstep (mkCfg 100 false 1 1 10 0) h (HOp (OSet [1]%N [2]%N)) in
  let '(h2, r2, t2) := hstep (mkCfg 100 false 1 1 10 0) (drop_store h1) (HOp (OSet [1]%N [3]%N)) in
  r1 = HOk VUnit /\ r2 = HClosed /\ t2 = [] /\ get (h_st h2) [1]%N = ROk (Some [2]%N).
Proof. vm_compute. repeat split. Qed.
