(* Props/C06.v — C06: over the network SET/GET/DEL answer exactly as the map model, in order.
   Model: Resp/Handler.v (Command::try_from, the three commands, the per-connection loop) over
   Resp/Conn.v (read_frame over arbitrary socket reads) and a key-value map; C01 proves the storage
   engine to be that map. *)
From BC Require Import Resp.Frame Resp.Conn Resp.Handler Resp.HandlerProofs Resp.Prefix Resp.Stream Resp.Client Resp.ClientProofs Resp.OverEngine.
From BC Require Store.Engine Store.Inv.
Open Scope Z_scope.

(* 1. For any stream of well-formed requests, cut into socket reads in ANY way (whole, one byte at a
      time, anywhere inside a length or a CRLF) and with any number of requests sent before replies
      are read, the bytes the handler writes are exactly the concatenation of the map's replies, one
      per request, in request order (OK for SET; the stored bytes or a null for GET; for DEL the
      number of named keys that were present, each counted as it is deleted in turn), the store ends
      as the map does, and the connection ends cleanly. *)
Theorem C06_replies : forall rs es segs m, Forall (fun r => wf_req r = true) rs ->
  Forall2 (fun r e => enc (frame_of_req r) = Ok e) rs es -> concat segs = concat es ->
  handler_from m segs = (fst (spec_out m rs), snd (spec_out m rs), TClosed).
Proof. exact handler_replies. Qed.
Print Assumptions C06_replies.

(* 2. Every well-formed request has an encoding and is understood as the command it spells. *)
Theorem C06_requests_understood : forall r, wf_req r = true ->
  (exists e, enc (frame_of_req r) = Ok e) /\ cmd_of (frame_of_req r) = inl (cmd_of_req r).
Proof. exact client_requests_understood. Qed.
Print Assumptions C06_requests_understood.

(* 3. Values come back byte for byte, at the level of the commands' effect on the map: the reply of
      GET k applied to the map that SET k v leaves is a bulk string of exactly the bytes v, whatever
      they are (through the handler, the wire and the client: 3c). *)
Theorem C06_value_bytes_exact : forall m k v, is_utf8 k = true ->
  snd (apply_cmd (fst (apply_cmd m (CSet k v))) (CGet k)) = Bulk v.
Proof. intros m k v _. cbn [apply_cmd fst snd]. rewrite kv_get_set, beq_refl. reflexivity. Qed.
Print Assumptions C06_value_bytes_exact.

(* 3b. End to end with the crate's own client (src/net/client.rs; model Resp/Client.v): the calls of a
       session (set / get / del with well-formed arguments), each answered by the handler, return call by
       call what the map says — Ok(()) for set, the stored bytes or None for get, the count for del —
       whatever the segmentation of the reply stream and for either build of the frame reader.
       [kv_small]: every stored value has a length that fits the length field (true of the empty map and
       kept by well-formed requests). *)
Theorem C06_client_server : forall b rs segs m, kv_small m -> Forall (fun r => wf_req r = true) rs ->
  concat segs = fst (spec_out m rs) ->
  client_session rs (read_all (fixed b) segs []) = spec_results m rs.
Proof. exact client_server. Qed.
Print Assumptions C06_client_server.

(* 3c. Read-your-writes through both ends and the wire: set then get on one connection returns exactly
       the bytes that were set. *)
Theorem C06_set_then_get : forall b m k v segs, kv_small m -> wf_req (RqSet k v) = true -> wf_req (RqGet k) = true ->
  concat segs = fst (spec_out m [RqSet k v; RqGet k]) ->
  client_session [RqSet k v; RqGet k] (read_all (fixed b) segs []) = [CUnit; CVal (Some v)].
Proof. exact set_then_get. Qed.
Print Assumptions C06_set_then_get.

(* 3d. A reply stream that ends inside a reply: the calls answered so far return the map's answers, the
       next one reports a reset (never a value). *)
Theorem C06_client_truncated : forall b rs r segs m part e, kv_small m -> Forall (fun r => wf_req r = true) rs -> wf_req r = true ->
  enc (snd (apply_cmd (snd (spec_out m rs)) (cmd_of_req r))) = Ok e -> sprefix part e -> part <> [] ->
  concat segs = fst (spec_out m rs) ++ part ->
  client_session (rs ++ [r]) (read_all (fixed b) segs []) = spec_results m rs ++ [CReset].
Proof. exact client_truncated. Qed.
Print Assumptions C06_client_truncated.

(* 3e. ... over the storage ENGINE instead of a map (Resp/OverEngine.v: the same loop issuing one get / set per
       command and one delete per key of a DEL to the engine model of Store/Engine.v, started on an empty
       directory, any configuration): the bytes written are still the map's replies in order, the connection ends
       cleanly, and the engine ends in a state that satisfies its invariant and denotes the map the requests
       produce — what is then on disk is C01's and C03's subject. *)
Theorem C06_over_engine : forall c rs es segs, Forall (fun r => wf_req r = true) rs ->
  Forall2 (fun r e => enc (frame_of_req r) = Ok e) rs es -> concat segs = concat es ->
  let '(out, s', t) := handle_e c Store.Engine.init (read_all (fixed Release) segs []) [] in
  out = fst (spec_out [] rs) /\ t = TClosed /\ denotes s' (snd (spec_out [] rs)).
Proof. exact handler_over_engine. Qed.
Print Assumptions C06_over_engine.

(* 4. DEL counts keys as they are deleted in turn: a key named twice counts once. *)
Example C06_del_counts_in_turn :
  let m := aset (aset [] [107]%N [1]%N) [97]%N [2]%N in
  snd (apply_cmd m (CDel [[107]; [107]; [120]; [97]]%N)) = Integer 2.
Proof. vm_compute. reflexivity. Qed.

Example C06_example :
  let rs := [RqSet [107]%N [13; 10; 0; 255]%N; RqGet [107]%N; RqDel [[107]; [107]]%N; RqGet [107]%N] in
  handler_from [] [[42; 51; 13; 10; 36; 51; 13; 10; 83; 69; 84; 13; 10; 36; 49; 13; 10; 107; 13; 10; 36; 52; 13; 10; 13; 10; 0; 255; 13];
                   [10; 42; 50; 13; 10; 36; 51; 13; 10; 71; 69; 84; 13; 10; 36; 49; 13; 10; 107; 13; 10; 42; 51; 13; 10; 36; 51; 13; 10; 68; 69; 76; 13; 10; 36; 49; 13; 10; 107; 13; 10; 36; 49; 13; 10; 107; 13; 10];
                   [42; 50; 13; 10; 36; 51; 13; 10; 71; 69; 84; 13; 10; 36; 49; 13; 10; 107; 13; 10]]%N
  = (fst (spec_out [] rs), snd (spec_out [] rs), TClosed) /\
  fst (spec_out [] rs) = [43; 79; 75; 13; 10; 36; 52; 13; 10; 13; 10; 0; 255; 13; 10; 58; 49; 13; 10; 36; 45; 49; 13; 10]%N.
Proof. vm_compute. split; reflexivity. Qed.

Example C06_client_example :
  let rs := [RqSet [107]%N [13; 10; 0; 255]%N; RqGet [107]%N; RqDel [[107]; [107]]%N; RqGet [107]%N] in
  kv_small [] /\ Forall (fun r => wf_req r = true) rs /\
  client_session rs (read_all (fixed Release) [[43; 79; 75; 13; 10; 36; 52; 13]; [10; 13; 10; 0; 255; 13; 10; 58; 49; 13; 10; 36; 45; 49; 13; 10]]%N [])
  = [CUnit; CVal (Some [13; 10; 0; 255]%N); CInt 1; CVal None].
Proof. split; [exact kv_small_nil|]. split; [repeat constructor|]. vm_compute. reflexivity. Qed.
