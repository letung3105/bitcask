(* Props/C10.v — C10: hostile or malformed input harms only the connection that sent it.
   Proved over the handler model: totality on arbitrary bytes and the exact store effect.  That an
   error or panic in one tokio task leaves the process and the other tasks intact is runtime
   behaviour: observed by `bin/check C10` (process alive, other connections answered correctly while
   and after each hostile stream), not proved. *)
From BC Require Import Resp.Frame Resp.Conn Resp.Handler Resp.HandlerProofs Resp.FrameProofs Resp.OverEngine.
From BC Require Store.Engine.

(* 1. Whatever bytes arrive, in whatever pieces, the connection layer hands the handler only frames
      followed by exactly one clean end, reset or frame error — never a panic, an abort (stack,
      allocation) or a stuck parser. *)
Theorem C10_reads_harmless : forall b segs buf, exists fs r, read_all (fixed b) segs buf = map RFrame fs ++ [r] /\
  (r = RClean \/ r = RReset \/ exists e, r = RErr e).
Proof. exact read_all_ends. Qed.
Print Assumptions C10_reads_harmless.

(* 2. ... and the handler always ends by closing its own connection (peer closed, reset, frame
      error, command error), never in a panic. *)
Theorem C10_handler_total : forall m segs, snd (handler_from m segs) <> TPanic.
Proof. exact handler_total. Qed.
Print Assumptions C10_handler_total.

(* 3. The store after the connection is the store before it with exactly the commands the command
      parser accepted applied in order, up to the first frame it rejects: garbage, unknown or
      lower-case commands, wrong arity, non-UTF-8 keys contribute nothing. *)
Theorem C10_store_effect : forall rs m out, snd (fst (handle m rs out)) = apply_all m (accepted rs).
Proof. exact handler_store_effect. Qed.
Print Assumptions C10_store_effect.

(* 4. What the command parser accepts: only arrays whose first element is a bulk string spelling
      GET, SET or DEL in upper case.  (It also checks arity, that the arguments are bulk strings and
      that keys are UTF-8; that part is in [cmd_of] and in the check's runs, not in this statement.) *)
Theorem C10_accepts_only_commands : forall f c, cmd_of f = inl c ->
  exists name args, f = Array (Bulk name :: args) /\ (name = s_GET \/ name = s_SET \/ name = s_DEL).
Proof.
  intros f c H. destruct f as [| | | |items|]; try discriminate. destruct items as [|[| | |name| |] args]; try discriminate.
  exists name, args. split; [reflexivity|]. cbn [cmd_of] in H.
  destruct (beq name s_DEL) eqn:E1; [right; right; apply beq_eq; exact E1|].
  destruct (beq name s_GET) eqn:E2; [left; apply beq_eq; exact E2|].
  destruct (beq name s_SET) eqn:E3; [right; left; apply beq_eq; exact E3|discriminate].
Qed.
Print Assumptions C10_accepts_only_commands.

Example C10_example :
  (* SET hk hv, then garbage: the SET is applied and answered, the garbage closes the connection *)
  let '(out, m, t) := handler_from [] [[42; 51; 13; 10; 36; 51; 13; 10; 83; 69; 84; 13; 10; 36; 50; 13; 10; 104; 107; 13; 10; 36; 50; 13; 10; 104; 118; 13; 10; 0; 1; 13; 10]%N] in
  out = [43; 79; 75; 13; 10]%N /\ kv_get m [104; 107]%N = Some [104; 118]%N /\ t = TFrameErr BadEncoding.
Proof. vm_compute. repeat split. Qed.

(* ... over the storage ENGINE (Resp/OverEngine.v): on arbitrary bytes in arbitrary pieces the loop running over
   the engine model does not panic, and the engine ends in a state that satisfies its invariant and denotes the
   map changed by exactly the accepted commands — a hostile connection reaches the files only through them. *)
Theorem C10_over_engine : forall c segs,
  let '(out, s', t) := handle_e c Store.Engine.init (read_all (fixed Release) segs []) [] in
  t <> TPanic /\ denotes s' (apply_all [] (accepted (read_all (fixed Release) segs []))).
Proof. exact hostile_over_engine. Qed.
Print Assumptions C10_over_engine.
