(* Props/C18.v — C18: background merge and sync follow the configured policy.
   Model: Sys/Background.v (the two periodic tasks over the engine model) and Sys/Trigger.v (the
   trigger predicate, fragmentation in IEEE-754 binary64 via Flocq).  Real time is abstracted to
   ticks; "within one check interval plus jitter" is "at the first wake-up after the trigger is
   exceeded", the wake-ups being at most interval*(1+jitter) apart by construction of the sleep:
   partial.  The `window` policy is outside the property's quantifier; it is modelled with the local hour as an
   input (theorem 2b). *)
From Coq Require Import List.
Import ListNotations.
From BC Require Import Store.Engine Sys.Trigger Sys.Background.

(* 1. With policy `never` the merge task never merges: no wake-up is answered [OMerged], whatever
      clients do and however the triggers stand.  (A merge a client asks for is a client operation of
      the same system, observed as [OClient], and is not what this excludes.) *)
Theorem C18_never : forall b, b_policy b = PNever -> forall es s, ~ In OMerged (snd (fst (brun b s es))).
Proof. exact never_merges. Qed.
Print Assumptions C18_never.

(* 2. With policy `always`, at every wake-up of the merge task a merge runs exactly when some file
      exceeds a trigger — dead bytes above the limit, or dead/(dead+live) computed in binary64
      above the fragmentation limit — on the counters at that instant (which C19 proves exact). *)
Theorem C18_always_iff_triggered : forall b s ord, b_policy b = PAlways ->
  snd (fst (bstep b s (MergeTick ord))) = if can_merge PAlways (b_trig b) s then OMerged else OSkipped.
Proof. exact always_merges_iff_triggered. Qed.
Print Assumptions C18_always_iff_triggered.

(* 2b. With policy `window a..z`, a wake-up at local hour h inside the hours (a <= h <= z, both ends
       included, as the code compares) behaves as `always`; a wake-up outside them merges nothing. *)
Theorem C18_window : forall b s ord a z h, b_policy b = PWindow a z h ->
  snd (fst (bstep b s (MergeTick ord))) =
  if (a <=? h)%N && (h <=? z)%N then (if can_merge PAlways (b_trig b) s then OMerged else OSkipped) else OSkipped.
Proof. exact window_tick. Qed.
Print Assumptions C18_window.

(* 3. With interval sync, every wake-up of the sync task forces the file that is active then. *)
Theorem C18_sync_interval : forall b s, b_sync_interval b = true ->
  bstep b s SyncTick = (s, OSynced (s_active s), [SFsync (FData (s_active s))]).
Proof. exact sync_tick_forces_active. Qed.
Print Assumptions C18_sync_interval.

(* 4. The binary64 trigger agrees with exact rational arithmetic for all counters up to 40 and all
      thresholds k/8 (an instance of [f64_frag_agrees]: counters up to 2^e against dyadic thresholds
      k/2^j with j + e <= 52).  Nothing is claimed outside that range; the threshold 0.6, which is no
      such dyadic, is looked at in [f64_threshold_is_not_rational] (Sys/Trigger.v): the binary64 for
      0.6 lies below 3/5, and 3 dead of 5 is still not above it. *)
Theorem C18_f64_agrees_small : small_agree = true.
Proof. exact small_agree_true. Qed.
Print Assumptions C18_f64_agrees_small.

Example C18_example :
  let b := mkB (mkCfg 1000 false 1 1 1000 0) PAlways (mkTrig 6 10 1000000) false in
  let s := fst (fst (run (b_cfg b) init [OSet [1]%N [1]%N; OSet [1]%N [2]%N; OSet [2]%N [3]%N])) in
  snd (fst (bstep b s (MergeTick [[2]%N; [1]%N]))) = OSkipped /\
  let s2 := fst (fst (run (b_cfg b) s [OSet [1]%N [4]%N; OSet [2]%N [5]%N; OSet [1]%N [6]%N])) in
  snd (fst (bstep b s2 (MergeTick [[2]%N; [1]%N]))) = OMerged.
Proof. vm_compute. split; reflexivity. Qed.
