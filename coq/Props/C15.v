(* Props/C15.v — C15: the connection limit holds and slots are never leaked.
   Model: Sys/Limit.v, the permit handling of Listener::listen and Handler's Drop.  The semaphore,
   and that Drop runs however a task ends (also on a panic), are runtime behaviour: partial. *)
From Coq Require Import List Arith.
Import ListNotations.
From BC Require Import Sys.Limit Sys.LimitRun.

(* 1. In every reachable state, permits + connections being served + the permit the listener may
      hold add up to the configured maximum. *)
Theorem C15_balanced : forall max es s, run (init max) es = Some s -> balanced max s.
Proof. exact reachable_balanced. Qed.
Print Assumptions C15_balanced.

(* 2. Hence at no time are more than the maximum being served. *)
Theorem C15_limit_holds : forall max es s, run (init max) es = Some s -> serving s <= max.
Proof. exact limit_holds. Qed.
Print Assumptions C15_limit_holds.

(* 3. A slot comes back whenever a connection ends: once none is being served, every permit is
      available or in the listener's hand.  That the reason of the ending does not matter is the
      model's assumption (Drop always runs, see above): [step] does not read it, which is all that
      [C15_ending_irrelevant] displays. *)
Theorem C15_no_leak : forall max es s, run (init max) es = Some s -> serving s = 0 -> listener s <> LStopped ->
  permits s + held s = max.
Proof. intros max es s E H0 _. exact (no_leak max es s E H0). Qed.
Print Assumptions C15_no_leak.

Theorem C15_ending_irrelevant : forall s w1 w2, step s (HandlerEnd w1) = step s (HandlerEnd w2).
Proof. exact ending_irrelevant. Qed.
Print Assumptions C15_ending_irrelevant.

(* 4. ... and from such a state with the listener waiting (holding no permit) the server can accept
      the full configured number again. *)
Theorem C15_full_capacity_again : forall max es s, run (init max) es = Some s -> serving s = 0 -> listener s = LWaiting ->
  exists s', run s (accepts max) = Some s' /\ serving s' = max.
Proof. exact full_capacity_again. Qed.
Print Assumptions C15_full_capacity_again.

(* 5. The model that the check compares with the real server — clients with identities opening connections,
      served connections ending in any way, waiting clients giving up, the listener and the handlers running as
      far as they can after every action — only ever takes steps of the transition system above: every world it
      reaches is a reachable state (so 1-4 apply to it), the served connections are exactly the ones counted, and
      never more than the maximum are served. *)
Theorem C15_eager_scheduler_is_a_run : forall max acts,
  run (init max) (rev (trace (play max acts))) = Some (sy (play max acts)) /\
  length (served (play max acts)) = serving (sy (play max acts)).
Proof. exact world_reachable. Qed.
Print Assumptions C15_eager_scheduler_is_a_run.

Theorem C15_served_never_above_max : forall max acts, length (served (play max acts)) <= max.
Proof. exact play_limit. Qed.
Print Assumptions C15_served_never_above_max.

Example C15_example :
  run (init 2) [Acquire; Accept; Acquire; Accept; HandlerEnd ByPanic; Acquire; Accept; HandlerEnd ByProtocolError; HandlerEnd ByClientClose]
  = Some (mkSys 2 LWaiting 0) /\
  run (init 2) [Acquire; Accept; Acquire; Accept; Acquire] = None.
Proof. split; reflexivity. Qed.

Example C15_eager_example :
  let w := play 2 [AOpen; AOpen; AOpen; AOpen; AEndServed 0 ByPanic; ADropPending 0; AEndServed 1 ByProtocolError] in
  served w = [1] /\ alive_ids (pend w) = [] /\ permits (sy w) = 0 /\ listener (sy w) = LHolding.
Proof. vm_compute. repeat split. Qed.
