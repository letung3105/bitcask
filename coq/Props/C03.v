(* Props/C03.v — C03: a process crash at any instant loses no acknowledged write and corrupts nothing.
   Proved for the model: every crash image — any prefix of the system calls of any ready script,
   merges included, the last write cut at any byte — recovers to the map after the first n
   operations (theorem 7).  The tie to the code is by execution: `bin/check C03` compares the model's
   traces with recorded real ones and opens every crash image of the real traces with the real code. *)
From BC Require Import Store.Codec Store.CodecProofs Store.Engine Store.Log Store.Cons Store.Inv Store.Refine Store.Merge Store.Theorems Store.Crash Store.CrashScript Store.CrashMerge.
From BC Require Resp.Frame Resp.Conn Resp.OverEngine.
Open Scope N_scope.

(* 1. At every operation boundary of every ready script — merges included — the directory can be
      opened and the opened store reads exactly the acknowledged state. *)
Theorem C03_boundary_recoverable : forall c s clk, reachable c s ->
  exists s' t, open (s_dir s) clk = ROk (s', tt, t) /\ Inv s' /\ forall k, abs s' k = abs s k.
Proof.
  intros c s clk Hr. pose proof (reachable_inv c s Hr) as HI.
  destruct (hints_optional s clk HI) as (s1 & t1 & _ & _ & H1 & _ & HI1 & _ & Ha & _). eauto.
Qed.
Print Assumptions C03_boundary_recoverable.

(* 2. A set or a delete issues exactly one append before anything else; the directory before that
      call recovers to the state without the operation, the directory after it (with or without the
      new active file a rollover creates, which is empty) to the state with it: the operation in
      flight is applied entirely or not at all. *)
Theorem C03_put_atomic : forall c s k v, Inv s ->
  exists s' t pos, put c s k v = ROk (s', tt, t) /\ Inv s' /\
    slog s' = slog s ++ [(s_active s, pos, mkEntry (s_clock s) k (Some v))] /\
    (forall k', abs s' k' = if beq k' k then Some v else abs s k').
Proof.
  intros c s k v HI. destruct (put_ok c s k v HI) as (s' & t & pos & Hp & HI' & Hlog & _).
  exists s', t, pos. split; [exact Hp|]. split; [exact HI'|]. split; [exact Hlog|].
  exact (abs_snoc s s' _ _ _ Hlog).
Qed.
Print Assumptions C03_put_atomic.

Theorem C03_delete_atomic : forall c s k, Inv s ->
  exists s' t pos b, delete c s k = ROk (s', b, t) /\ Inv s' /\
    slog s' = slog s ++ [(s_active s, pos, mkEntry (s_clock s) k None)] /\
    (forall k', abs s' k' = if beq k' k then None else abs s k').
Proof.
  intros c s k HI. destruct (delete_ok c s k HI) as (s' & t & pos & Hp & HI' & Hlog & _).
  exists s', t, pos, (match abs s k with Some _ => true | None => false end).
  split; [exact Hp|]. split; [exact HI'|]. split; [exact Hlog|].
  exact (abs_snoc s s' _ _ _ Hlog).
Qed.
Print Assumptions C03_delete_atomic.

(* 3. Recovery depends on the records only: files that hold no record (a freshly created active
      file, a merge output nothing was copied to yet) and hint files do not change what is recovered. *)
Theorem C03_empty_files_invisible : forall d id, log_of_dir (d ++ [(id, empty_file)]) = log_of_dir d.
Proof. exact log_of_dir_app_empty. Qed.
Print Assumptions C03_empty_files_invisible.

(* 4. Recovery itself only creates a file. *)
Theorem C03_recovery_only_creates : forall s s' t, reopen s = ROk (s', tt, t) -> exists a, t = [SCreate (FData a)].
Proof.
  intros s s' t H. unfold reopen, open in H. destruct (rebuild_files (s_dir s) ([], [])) as [[i x]|]; [|discriminate].
  inversion H; subst. eauto.
Qed.
Print Assumptions C03_recovery_only_creates.

(* 5. The byte level.  Decoding inverts encoding whatever follows; the bytes of a file scan to exactly
      its records at the positions the engine model uses; and a file whose last record is torn at ANY
      byte scans to the same records: the torn one is reported as end of input, never as an error and
      never as a shorter record. *)
Theorem C03_decode_inverts_encode : forall e rest, wf_entry e -> dec_entry (enc_entry e ++ rest) = DOk e rest.
Proof. exact dec_entry_enc. Qed.
Print Assumptions C03_decode_inverts_encode.

Theorem C03_bytes_are_records : forall es, Forall wf_entry es -> scan dec_entry (file_bytes es) = Some (layout 0 es).
Proof. exact scan_file. Qed.
Print Assumptions C03_bytes_are_records.

Theorem C03_torn_record_invisible : forall es e p q, Forall wf_entry es -> wf_entry e -> q <> [] -> enc_entry e = p ++ q ->
  scan dec_entry (file_bytes es ++ p) = Some (layout 0 es).
Proof. exact scan_torn_file. Qed.
Print Assumptions C03_torn_record_invisible.

Example C03_torn_example :
  let e1 := mkEntry 7 [107] (Some [1; 2; 3]) in let e2 := mkEntry 8 [107] None in
  scan dec_entry (enc_entry e1 ++ firstn 17 (enc_entry e2)) = Some [(0, 29, e1)] /\
  scan dec_entry (enc_entry e1 ++ enc_entry e2) = Some [(0, 29, e1); (29, 18, e2)].
Proof. split; vm_compute; reflexivity. Qed.

(* 6. Crash safety over byte-level file-system states.  [fs_run] executes a trace of system calls on
      a file system of byte strings; a crash image of a trace is the file system after any prefix of its
      calls, the last write possibly cut at any byte ([image_of]).  [img_ok img m]: what the scanner
      reads from the image (theorem 5) is a directory that opens, and the opened store reads the map [m].
      For every script of sets, deletes, gets and reopens, every crash image of its trace recovers to
      the map after the first n operations for some n: all acknowledged operations, and the one in
      flight entirely or not at all. *)
Theorem C03_crash_safe_no_merge : forall c ops s0, no_merge ops -> rep s0 (s_dir init) -> trace_wf (snd (run c init ops)) ->
  forall img, image_of s0 (snd (run c init ops)) img ->
    exists n, (n <= length ops)%nat /\ img_ok img (abs (state_after c init ops n)).
Proof. exact crash_safe_no_merge. Qed.
Print Assumptions C03_crash_safe_no_merge.

(* [img_ok] unfolded: the image reads as some directory [d] ([reads_as]: per file the records of [d]
   plus possibly a torn tail, hinted files through their hint file only), the hint files of [d]
   describe their data files ([dir_hints_ok], part of [recovers_to]), and [d] opens to the map.
   What [reads_as] promises about the scanner is this: *)
Theorem C03_reads_as_is_what_the_scanner_reads : forall img d, reads_as img d -> wf_dir d -> wf_hints d -> dir_hints_ok d ->
  forall id f, dir_get d id = Some f ->
    match d_hint f with
    | None => exists b, img (FData id) = Some b /\ scan dec_entry b = Some (layout 0 (d_data f))
    | Some hs => (exists b, img (FHint id) = Some b /\ scan dec_hint b = Some (hint_layout 0 hs)) /\
                 (exists bd, img (FData id) = Some bd /\ Forall (fun h => h_pos h + h_len h <= blen bd) hs)
    end.
Proof. exact reads_scan. Qed.
Print Assumptions C03_reads_as_is_what_the_scanner_reads.

(* non-vacuity: a concrete script, its trace is well-formed, and a crash image that cuts the second
   write after 9 bytes exists *)
Example C03_crash_example :
  let c := mkCfg 60 false 0 1 0 1000000000 in
  let ops := [OSet [107] [1; 2]; OSet [107] [3]; ODel [107]] in
  let s0 : fs := fun f => match f with FData 0 => Some [] | _ => None end in
  rep s0 (s_dir init) /\ no_merge ops /\ trace_wf (snd (run c init ops)) /\
  exists img, image_of s0 (snd (run c init ops)) img /\
    img (FData 0) = Some (enc_entry (mkEntry 1 [107] (Some [1; 2])) ++ firstn 9 (enc_entry (mkEntry 2 [107] (Some [3])))).
Proof.
  cbv zeta.
  (* the trace, evaluated once: three appends, the third one rolls the active file over *)
  assert (Et : snd (run (mkCfg 60 false 0 1 0 1000000000) init [OSet [107] [1; 2]; OSet [107] [3]; ODel [107]]) =
               [SWrite (FData 0) (enc_entry (mkEntry 1 [107] (Some [1; 2]))); SWrite (FData 0) (enc_entry (mkEntry 2 [107] (Some [3])));
                SWrite (FData 0) (enc_entry (mkEntry 3 [107] None)); SCreate (FData 1)]) by (vm_compute; reflexivity).
  rewrite Et. split; [|split; [|split]].
  - intros id. destruct id as [|p]; vm_compute; auto.
  - intros o [<-|[<-|[<-|[]]]]; reflexivity.
  - repeat constructor; eexists; (split; [|reflexivity]); unfold wf_entry, i64_ok; cbn; repeat split; lia.
  - eexists. split.
    + apply (img_torn _ _ _ [SWrite (FData 0) (enc_entry (mkEntry 1 [107] (Some [1; 2])))] (FData 0)
               (firstn 9 (enc_entry (mkEntry 2 [107] (Some [3])))) (skipn 9 (enc_entry (mkEntry 2 [107] (Some [3]))))
               [SWrite (FData 0) (enc_entry (mkEntry 3 [107] None)); SCreate (FData 1)]).
      * rewrite firstn_skipn. reflexivity.
      * vm_compute. discriminate.
      * cbn [app fs_run fs_step]. reflexivity.
    + reflexivity.
Qed.

(* 7. THE property, for every ready script — merges included.  A merge pass adds: copies of live
      records in new files (read through hint files that are written after the data, so a torn or
      missing hint only hides a copy), two fsyncs, then the removal of the selected files in ascending
      id order, hint file first; at every instant the removed set is closed downwards within the
      selection, so no tombstone disappears before the values it hides (Store/CrashMerge.v). *)
Theorem C03_crash_safe : forall c ops s0, run_ready c init ops -> rep s0 (s_dir init) -> trace_wf (snd (run c init ops)) ->
  forall img, image_of s0 (snd (run c init ops)) img ->
    exists n, (n <= length ops)%nat /\ img_ok img (abs (state_after c init ops n)).
Proof. exact crash_safe. Qed.
Print Assumptions C03_crash_safe.

(* 7s. ... for the SERVER: the per-connection loop (Resp/OverEngine.v) turns whatever bytes a connection sends, in
       whatever pieces, into a script of sets, gets and deletes on the engine ([script_of]: the commands accepted
       before the first rejected frame, one delete per key of a DEL; [handle_is_script]: the loop's engine state is
       the state after that script).  Every crash image of the system calls of that script opens to the map after
       some prefix of it: no acknowledged command of any connection is lost by a crash. *)
Theorem C03_server_crash_safe : forall c segs s0,
  let ops := Resp.OverEngine.script_of (Resp.Conn.read_all (Resp.Frame.fixed Resp.Frame.Release) segs []) in
  rep s0 (s_dir init) -> trace_wf (snd (run c init ops)) ->
  forall img, image_of s0 (snd (run c init ops)) img ->
    exists n, (n <= length ops)%nat /\ img_ok img (abs (state_after c init ops n)).
Proof. exact Resp.OverEngine.server_crash_safe. Qed.
Print Assumptions C03_server_crash_safe.

Theorem C03_server_loop_is_that_script : forall c rs s m out, Resp.OverEngine.denotes s m ->
  snd (fst (Resp.OverEngine.handle_e c s rs out)) = fst (fst (run c s (Resp.OverEngine.script_of rs))).
Proof. exact Resp.OverEngine.handle_is_script. Qed.
Print Assumptions C03_server_loop_is_that_script.

(* 7'. The same, sharp: a crash DURING operation [o], after the operations [ops1] were acknowledged,
       recovers to the state with all of [ops1], and [o] applied entirely or not at all. *)
Theorem C03_crash_during_operation : forall c ops1 o s0,
  run_ready c init (ops1 ++ [o]) -> rep s0 (s_dir init) -> trace_wf (snd (run c init (ops1 ++ [o]))) ->
  let s1 := fst (fst (run c init ops1)) in
  exists f1, fs_run s0 (snd (run c init ops1)) = Some f1 /\
    forall img, image_of f1 (snd (step c s1 o)) img ->
      img_ok img (abs s1) \/ img_ok img (abs (fst (fst (step c s1 o)))).
Proof. exact crash_during_op. Qed.
Print Assumptions C03_crash_during_operation.

Theorem C03_merge_pass_crash_safe : forall c s ord, Inv s -> merge_ready c s ord -> step_safe_at c s (OMerge ord).
Proof. exact merge_safe. Qed.
Print Assumptions C03_merge_pass_crash_safe.

(* non-vacuity for a merge: the script of C03_crash_example followed by more writes and a full merge is
   ready, its trace is executable by the byte-level file system, and ends in the model's directory *)
Example C03_merge_example :
  let c := mkCfg 60 false 0 1 0 1000000000 in
  let ops := [OSet [107] [1; 2]; OSet [108] [3]; ODel [107]; OSet [109] [4; 4; 4; 4; 4; 4; 4; 4; 4; 4; 4; 4; 4; 4; 4; 4; 4; 4; 4; 4; 4; 4; 4; 4; 4; 4; 4; 4; 4; 4]; OMerge [[108]; [109]]] in
  let s0 : fs := fun f => match f with FData 0 => Some [] | _ => None end in
  (exists s1, fs_run s0 (snd (run c init ops)) = Some s1 /\ s1 (FData 0) = None /\ s1 (FData 2) <> None) /\
  existsb (fun call => match call with SUnlink _ => true | _ => false end) (snd (run c init ops)) = true.
Proof. cbv zeta. split; [eexists; split; [vm_compute; reflexivity|split; [reflexivity|discriminate]]|vm_compute; reflexivity]. Qed.

(* Not covered by these theorems: histories with several crashes in a row (each recovery starts a
   new process whose first call creates a file: theorem 4), and the step from [reads_as] to the real
   scanner, which theorem C03_reads_as_is_what_the_scanner_reads states for the model's decoders.
   `bin/check C03` opens, with the real code, every image cut from the recorded real trace of every
   generated workload at every call boundary and at byte cuts inside writes, merges included. *)
