(* Props/C11.v — C11: concurrent clients see one linearizable store.
   Each command of a connection is applied by one store operation (Resp/Handler.v, C10) that runs
   strictly inside the interval between the arrival of the request and the sending of the reply, and
   a connection has at most one command in flight.  Reading the threads of Conc/StoreLTS.v as
   connections, the client-visible history is the store history with wider intervals; widening an
   interval keeps a history accepted by the commit-point monitor (theorems 4 and 5), so the
   client-visible history is linearizable whenever the store-level one is.
   Partial: tokio's scheduling of handlers and blocking threads is not modelled; the check measures
   real client-side histories and decides them with a linearizability checker. *)
From Coq Require Import List Arith.
Import ListNotations.
From BC Require Import Conc.Lin Conc.Widen Conc.StoreLTS Conc.StoreSafe Conc.StoreLin.

(* 1. Generic: any execution the monitor accepts is linearizable, with the commit order as witness
      (replay reproduces all results; completed operations are all there; real-time order is
      respected).  The monitor compares a returned value with the one computed at the commit by
      [Req], of which only reflexivity is assumed; with a comparison that decides equality (2) this
      is "every operation returns the value computed at its commit point". *)
Theorem C11_commit_points_linearize :
  forall (S O R : Type) (spec : S -> O -> S * R) (Req : R -> R -> bool), (forall a, Req a a = true) ->
  forall s0 es m, Lin.mrun S O R spec Req (Lin.minit S O R s0) es = Some m ->
  replay S O R spec Req s0 (lin S O R m) = (ghost S O R m, true) /\
  (forall id, In id (returned S O R m) -> In id (ids_of O R (lin S O R m))) /\
  (forall id rs a l1 l2, In (id, rs) (before S O R m) -> In a rs -> ids_of O R (lin S O R m) = l1 ++ id :: l2 -> In a l1).
Proof. intros S O R spec Req Hr s0 es m. exact (commit_order_linearizes S O R spec Req Hr s0 es m). Qed.
Print Assumptions C11_commit_points_linearize.

(* 2. Instantiated for the store under any interleaving of connections (threads of the model = connections;
      [IInv] is only accepted from an idle connection: one command in flight per connection, so the
      real-time clause covers each connection's own order). *)
Theorem C11_store_linearizable : forall cap es s,
  lrun rule_fixed (linit cap) es = Some s ->
  exists m, Lin.mrun _ _ _ mspec res_eqb (Lin.minit _ _ _ (fun _ => None)) (project (linit cap) es) = Some m /\
    ghost _ _ _ m = gmap s /\
    replay _ _ _ mspec res_eqb (fun _ => None) (lin _ _ _ m) = (gmap s, true) /\
    (forall id, In id (returned _ _ _ m) -> In id (ids_of _ _ (lin _ _ _ m))) /\
    (forall id rs a l1 l2, In (id, rs) (before _ _ _ m) -> In a rs -> ids_of _ _ (lin _ _ _ m) = l1 ++ id :: l2 -> In a l1).
Proof. exact every_schedule_linearizable. Qed.
Print Assumptions C11_store_linearizable.

(* 3. The remap repair matters at this level too: no connection's GET can panic the blocking thread
      that runs it (a panic would surface as a closed connection, not a reply). *)
Theorem C11_no_panic : forall cap es s t, lrun rule_fixed (linit cap) es = Some s -> thr s t <> PPanicked.
Proof. exact no_panic. Qed.
Print Assumptions C11_no_panic.

(* 4. Widening.  What a client observes of a command is a wider interval than the store operation that
      executes it: the request is sent before the store is invoked, the reply arrives after it returned.
      Moving the invocation of an operation earlier past any events of other threads keeps the history
      accepted by the monitor ... *)
Theorem C11_invocation_earlier : forall (S O R : Type) (spec : S -> O -> S * R) (Req : R -> R -> bool) m pre mid t o post,
  Forall (fun e => Widen.ev_thread O R e <> t) mid ->
  accepted S O R spec Req m (pre ++ mid ++ Lin.IInv O R t o :: post) -> accepted S O R spec Req m (pre ++ Lin.IInv O R t o :: mid ++ post).
Proof. exact invocation_earlier. Qed.
Print Assumptions C11_invocation_earlier.

(* 5. ... and so does moving its return later. *)
Theorem C11_return_later : forall (S O R : Type) (spec : S -> O -> S * R) (Req : R -> R -> bool) m pre t r mid post,
  Forall (fun e => Widen.ev_thread O R e <> t) mid ->
  accepted S O R spec Req m (pre ++ Lin.IRet O R t r :: mid ++ post) -> accepted S O R spec Req m (pre ++ mid ++ Lin.IRet O R t r :: post).
Proof. exact return_later. Qed.
Print Assumptions C11_return_later.

(* Non-vacuity: two connections, a SET on one racing a GET on the other (the GET's lookup falls between
   the SET's append and its publication): the schedule runs, and the commit order puts the GET first. *)
Example C11_example :
  let es := [EInvoke 0 (OpPut 1 10 30); ELock 0; EBegin 0; EGrow 0 30; EFinish 0;
             EInvoke 1 (OpGet 1); ECheckout 1; ELookup 1;
             EPublish 0; EUnlock 0; EReturn 0; ERemap 1; ECheckin 1; EReturn 1] in
  exists s, lrun rule_fixed (linit 2) es = Some s /\ gmap s 1 = Some 10 /\
    project (linit 2) es = [Lin.IInv _ _ 0 (OpPut 1 10 30); Lin.IInv _ _ 1 (OpGet 1); Lin.ICommit _ _ 1; Lin.ICommit _ _ 0;
                            Lin.IRet _ _ 0 RUnit; Lin.IRet _ _ 1 (RVal None)].
Proof. eexists. split; [vm_compute; reflexivity|]. split; vm_compute; reflexivity. Qed.
