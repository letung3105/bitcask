(* Props/C14.v — C14: data files are append-only and immutable, with ids that only grow.
   The property is decided by a monitor ([disc_run], Store/Trace.v) over the mutating system calls a
   process issues; the monitor is evaluated inside Coq on every trace recorded from the REAL store
   (LD_PRELOAD recorder) and the recorded traces are also compared call by call with the model's.
   The theorems below say what acceptance by the monitor guarantees.  The vocabulary of the monitor
   (create / append-write / fsync / unlink) has no truncate, rename, positional write or re-open for
   writing: the recorder reports those separately and any occurrence is a violation. *)
From BC Require Import Store.Engine Store.Trace Store.Theorems Store.Discipline.
From BC Require Resp.Frame Resp.Conn Resp.OverEngine Resp.ServerStore.
Open Scope N_scope.

(* 1. Every data file is created under a name that does not exist, with an id greater than every id
      the directory held when the process started and every id created since. *)
Theorem C14_ids_only_grow : forall maxsize m0 pre i post m',
  disc_run maxsize m0 (pre ++ SCreate (FData i) :: post) = Some m' ->
  exists m1, disc_run maxsize m0 pre = Some m1 /\ gt_max (mn_max m1) i = true /\ max_le (mn_max m0) (mn_max m1) /\
             fsize_of (mn_files m1) (FData i) = None.
Proof. exact monitor_ids_grow. Qed.
Print Assumptions C14_ids_only_grow.

(* 2. Every write appends to the data file this process created last, or to its hint file: never to
      a file found at start-up, never to a file once a newer data file exists; and a data file is
      only extended while it does not yet exceed the configured maximum (so it overshoots by less
      than one entry). *)
Theorem C14_writes_only_extend_newest : forall maxsize m0 pre f b post m',
  disc_run maxsize m0 (pre ++ SWrite f b :: post) = Some m' ->
  exists m1, disc_run maxsize m0 pre = Some m1 /\ mn_cur m1 = Some (fid f) /\
             exists z, fsize_of (mn_files m1) f = Some z /\ (match f with FData _ => z <= maxsize | FHint _ => True end).
Proof. exact monitor_write_target. Qed.
Print Assumptions C14_writes_only_extend_newest.

(* 3. A process writes nothing before it has created a file of its own (files left by a previous
      process, or by a crash, are never reopened for writing). *)
Theorem C14_no_write_to_inherited_files : forall maxsize files f b post m',
  disc_run maxsize (mon_init files) (SWrite f b :: post) = Some m' -> False.
Proof. exact monitor_no_write_before_create. Qed.
Print Assumptions C14_no_write_to_inherited_files.

(* 4. The largest id ever seen never decreases along an accepted trace. *)
Theorem C14_max_id_monotone : forall maxsize tr m m', disc_run maxsize m tr = Some m' -> max_le (mn_max m) (mn_max m').
Proof. exact disc_run_max. Qed.
Print Assumptions C14_max_id_monotone.

(* 5. THE property for the model: the monitor accepts the whole trace of a process that opens an empty
      directory and then runs ANY ready script of sets, gets, deletes, reopens and merges — so by 1-4
      every data file the store ever creates has a fresh id above all earlier ones, every write goes
      to the data file created last or its hint file, and no data file is extended beyond the maximum
      size (Store/Discipline.v). *)
Theorem C14_model_traces_accepted : forall c ops, run_ready c init ops ->
  disc_ok (c_max c) (mon_init []) (SCreate (FData 0) :: snd (run c init ops)) = true.
Proof. exact model_traces_accepted. Qed.
Print Assumptions C14_model_traces_accepted.

(* ... for the SERVER (Resp/ServerStore.v): the system calls caused by the commands of any connection, whatever bytes
   it sends, are accepted by the monitor. *)
Theorem C14_server_traces_accepted : forall c segs,
  disc_ok (c_max c) (mon_init []) (SCreate (FData 0) :: snd (run c init (Resp.OverEngine.script_of (Resp.Conn.read_all (Resp.Frame.fixed Resp.Frame.Release) segs [])))) = true.
Proof. exact Resp.ServerStore.server_traces_accepted. Qed.
Print Assumptions C14_server_traces_accepted.

(* Non-vacuity: the model's own trace of a script with rollovers, a merge and a reopen is accepted;
   a trace that reuses an id, or writes to the older file after a rollover, is rejected. *)
Example C14_model_trace_accepted :
  let c := mkCfg 60 false 0 1 0 1000000000 in
  let ops := [OSet [65] [1; 1; 1]; OSet [65] [2]; OSet [66] [3; 3]; ODel [66]; OMerge [[65]]; OSet [67] []; OReopen; OSet [65] []] in
  disc_ok 60 (mon_init []) (SCreate (FData 0) :: snd (run c init ops)) = true.
Proof. vm_compute. reflexivity. Qed.
Example C14_reused_id_rejected :
  disc_ok 60 (mon_init []) [SCreate (FData 0); SWrite (FData 0) [1]; SCreate (FData 1); SUnlink (FData 0); SCreate (FData 0)] = false.
Proof. vm_compute. reflexivity. Qed.
Example C14_write_to_older_rejected :
  disc_ok 60 (mon_init []) [SCreate (FData 0); SWrite (FData 0) [1]; SCreate (FData 1); SWrite (FData 0) [2]] = false.
Proof. vm_compute. reflexivity. Qed.
