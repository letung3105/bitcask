(* Props/C09.v — C09: with sync=always an acknowledged write survives power loss, merges included.
   Proved for the model, in the failure model of the property (per file independently any suffix
   written after that file's last completed fsync may be missing; creations and removals are
   persistent; the failure may strike at every boundary between calls): every power image of the
   trace of every ready script under sync=always — merge passes included — recovers to the map after
   the first n operations (theorems 4 and 5).  `bin/check C09` ties this to the code: it enumerates
   power-cut images of recorded REAL traces and opens each with the real code. *)
From BC Require Import Store.Engine Store.Log Store.Cons Store.Inv Store.Refine Store.Merge Store.Theorems
  Store.Crash Store.CrashScript Store.CrashMerge Store.Power.
From BC Require Resp.Frame Resp.Conn Resp.OverEngine Resp.ServerStore.
Open Scope N_scope.

(* 1. With sync=always, a set or delete appends one record and forces the file it appended to,
      before anything else happens and before it returns. *)
Theorem C09_write_then_fsync : forall c s k v s' l t, c_sync c = true -> s_stale s = false ->
  write c s k v = ROk (s', l, t) ->
  exists rest, t = SWrite (FData (s_active s)) (enc_entry (mkEntry (s_clock s) k v)) :: SFsync (FData (s_active s)) :: rest /\
               (rest = [] \/ exists a, rest = [SCreate (FData a)]).
Proof.
  intros c s k v s' l t Hsync Hst. unfold write. rewrite Hst, Hsync.
  destruct (append_data (s_dir s) (s_active s) _) as [[d2 pos]|]; [|discriminate].
  destruct (c_max c <? _).
  - unfold new_active. cbn [s_dir s_last]. destruct (dir_get d2 (s_last s + 1)); [discriminate|].
    intros H. injection H as _ _ <-. eexists. split; [reflexivity|]. right. eauto.
  - intros H. injection H as _ _ <-. eexists. split; [reflexivity|]. left. reflexivity.
Qed.
Print Assumptions C09_write_then_fsync.

(* 2. The order inside a merge (outputs forced before inputs are removed).  Two things stand here and
      no more: the copying loop of a merge issues no unlink ([merge_loop_no_unlink]), and on one
      concrete run ([C09_merge_trace_example]) the whole trace is listed and no write follows an
      unlink, by the test below.  That a power failure inside any merge loses no value is part of
      theorems 4 and 5. *)
Fixpoint no_write_after_unlink (t : list syscall) (seen_unlink : bool) : bool :=
  match t with
  | [] => true
  | SUnlink _ :: t' => no_write_after_unlink t' true
  | SWrite _ _ :: t' => negb seen_unlink && no_write_after_unlink t' seen_unlink
  | _ :: t' => no_write_after_unlink t' seen_unlink
  end.

(* the loop only ever puts writes, fsyncs and creates in front of its (reversed) trace *)
Fixpoint no_unlink (t : list syscall) : bool :=
  match t with [] => true | SUnlink _ :: _ => false | _ :: t' => no_unlink t' end.

Lemma merge_loop_no_unlink c sel : forall ord m m', no_unlink (m_trace m) = true ->
  merge_loop c sel m ord = ROk m' -> no_unlink (m_trace m') = true.
Proof.
  apply (merge_loop_keeps (fun m => no_unlink (m_trace m) = true)). intros m k l m1 Hn _ _ E1.
  unfold merge_one in E1. destruct (read_loc (m_dir m) l) as [e| |]; try discriminate.
  destruct (append_data (m_dir m) (m_id m) e) as [[d1 p1]|]; [|discriminate].
  destruct (c_max c <? m_pos m + l_len l).
  - destruct (create_pair _ _); [|discriminate]. inversion E1; subst. cbn [m_trace no_unlink]. exact Hn.
  - inversion E1; subst. cbn [m_trace no_unlink]. exact Hn.
Qed.
Print Assumptions merge_loop_no_unlink.

(* 3. At every operation boundary the directory recovers to the acknowledged state (see C03). *)
Theorem C09_boundary_recoverable : forall c s clk, reachable c s ->
  exists s' t, open (s_dir s) clk = ROk (s', tt, t) /\ Inv s' /\ forall k, abs s' k = abs s k.
Proof.
  intros c s clk Hr. pose proof (reachable_inv c s Hr) as HI.
  destruct (hints_optional s clk HI) as (s1 & t1 & _ & _ & H1 & _ & HI1 & _ & Ha & _). eauto.
Qed.
Print Assumptions C09_boundary_recoverable.

(* 4. THE property.  [pstep] runs the calls on a file system that also tracks the durable length of
      every file; [pimage st img]: [img] keeps of every file a prefix at least that long;
      [power_image_of st0 t img]: [img] is such an image of the state after some prefix of [t].
      [img_ok_p img m]: what the scanner reads from [img] — hint files up to the first entry that points
      past the end of its data file — is a directory that opens to the map [m].
      Under sync=always every power image of every ready script recovers to the state after the first
      n operations ... *)
Theorem C09_durable : forall c, c_sync c = true -> forall ops s st0,
  Inv s -> run_ready c s ops -> synced st0 -> rep (fst st0) (s_dir s) -> trace_wf (snd (run c s ops)) ->
  (exists st1, prun st0 (snd (run c s ops)) = Some st1 /\ synced st1 /\ rep (fst st1) (s_dir (fst (fst (run c s ops))))) /\
  forall img, power_image_of st0 (snd (run c s ops)) img ->
    exists n, (n <= length ops)%nat /\ img_ok_p img (abs (state_after c s ops n)).
Proof. exact power_safe_script. Qed.
Print Assumptions C09_durable.

(* 4s. ... for the SERVER (Resp/ServerStore.v): whatever bytes a connection sends, in whatever pieces, the engine
       operations its accepted commands consist of are such a script; with sync=always every power image of their
       system calls opens to the map after a prefix of them, and at the end everything written is durable. *)
Theorem C09_server_durable : forall c segs st0, c_sync c = true ->
  let ops := Resp.OverEngine.script_of (Resp.Conn.read_all (Resp.Frame.fixed Resp.Frame.Release) segs []) in
  synced st0 -> rep (fst st0) (s_dir init) -> trace_wf (snd (run c init ops)) ->
  (exists st1, prun st0 (snd (run c init ops)) = Some st1 /\ synced st1 /\ rep (fst st1) (s_dir (fst (fst (run c init ops))))) /\
  forall img, power_image_of st0 (snd (run c init ops)) img ->
    exists n, (n <= length ops)%nat /\ img_ok_p img (abs (state_after c init ops n)).
Proof. exact Resp.ServerStore.server_power_safe. Qed.
Print Assumptions C09_server_durable.

(* 5. ... sharply: a power failure during operation [o], after [ops1] returned, keeps all of [ops1]
      (and [o] entirely or not at all).  For a merge pass [o] the two maps are equal: a merge never
      removes the only durable copy of a value. *)
Theorem C09_acknowledged_survives : forall c ops1 o st0, c_sync c = true ->
  run_ready c init (ops1 ++ [o]) -> synced st0 -> rep (fst st0) (s_dir init) -> trace_wf (snd (run c init (ops1 ++ [o]))) ->
  let s1 := fst (fst (run c init ops1)) in
  exists st1, prun st0 (snd (run c init ops1)) = Some st1 /\
    forall img, power_image_of st1 (snd (step c s1 o)) img ->
      img_ok_p img (abs s1) \/ img_ok_p img (abs (fst (fst (step c s1 o)))).
Proof. intros c ops1 o st0 Hsync. exact (power_during_op c init ops1 o st0 Hsync (proj1 init_inv)). Qed.
Print Assumptions C09_acknowledged_survives.

Theorem C09_merge_pass_power_safe : forall c s ord, Inv s -> merge_ready c s ord -> step_power_safe c s (OMerge ord).
Proof. exact merge_power_safe. Qed.
Print Assumptions C09_merge_pass_power_safe.

(* the model's hint loader does what [img_ok_p] assumes: hints after the first one that points past
   the end of the data file are not loaded (the D9 repair) *)
Theorem C09_hint_loader_stops : forall fid L L' hs extra ix,
  Forall (fun h => h_pos h + h_len h <= L) hs -> Forall (fun h => h_pos h + h_len h <= L') hs ->
  match extra with [] => True | h :: _ => L < h_pos h + h_len h end ->
  load_hints fid L (hs ++ extra) ix = load_hints fid L' hs ix.
Proof. exact load_hints_extra. Qed.
Print Assumptions C09_hint_loader_stops.

(* Non-vacuity of 4 and 5: a script under sync=always with a merge pass is ready, its trace is
   well-formed and runs on the power-tracking file system from a durable state to a durable state; and
   a power image taken in the middle of the merge's copy phase — after the first copy reached the
   merge data file and before its hint was written, with only 5 of the 27 bytes of that copy durable —
   exists. *)
Definition ex_c := mkCfg 60 true 0 1 0 1000000000.
Definition ex_ops := [OSet [107] [1; 2]; OSet [108] [3]; ODel [107]; OSet [109] [4; 4; 4; 4; 4; 4; 4; 4; 4; 4; 4; 4; 4; 4; 4; 4; 4; 4; 4; 4; 4; 4; 4; 4; 4; 4; 4; 4; 4; 4]; OMerge [[108]; [109]]].
Definition ex_st0 : pst := ((fun f => match f with FData 0 => Some [] | _ => None end), fun _ => 0%nat).

Example C09_power_example :
  c_sync ex_c = true /\ synced ex_st0 /\ rep (fst ex_st0) (s_dir init) /\
  (exists st1, prun ex_st0 (snd (run ex_c init ex_ops)) = Some st1) /\
  exists img, power_image_of ex_st0 (snd (run ex_c init ex_ops)) img /\
              img (FData 2) = Some (firstn 5 (enc_entry (mkEntry 2 [108] (Some [3])))) /\ img (FHint 2) = Some [] /\ img (FData 0) <> None.
Proof.
  split; [reflexivity|]. split.
  { intros f b H. cbn [fst snd ex_st0] in *. destruct f as [[|p]|i]; try discriminate. inversion H. reflexivity. }
  split; [intros id; destruct id as [|p]; vm_compute; auto|]. split; [eexists; vm_compute; reflexivity|].
  assert (Hb0 : bounded ex_st0).
  { intros f b H. cbn [fst snd ex_st0] in *. destruct f as [[|p]|i]; try discriminate. inversion H. cbn. lia. }
  destruct (prun ex_st0 (firstn 12 (snd (run ex_c init ex_ops)))) as [st|] eqn:E; [|vm_compute in E; discriminate].
  pose proof (prun_bounded _ _ _ Hb0 E) as Hb.
  pose proof E as E'. vm_compute in E'. injection E' as <-.
  eexists. split.
  - apply (pimg _ _ _ (firstn 12 (snd (run ex_c init ex_ops))) (skipn 12 (snd (run ex_c init ex_ops))) _ (eq_sym (firstn_skipn _ _)) E).
    apply (cut_one_is_image _ (FData 2) 5 Hb). apply Nat.le_0_l. (* nothing of FData 2 is durable yet *)
  - vm_compute. split; [reflexivity|]. split; [reflexivity|discriminate].
Qed.

(* Non-vacuity / the merge ordering on a concrete run: every merge output is fsynced before the
   first unlink, and nothing is written after it. *)
Example C09_merge_trace_example :
  let c := mkCfg 60 true 0 1 0 1000000000 in
  let s := fst (fst (run c init [OSet [65] [1; 1; 1]; OSet [65] [2]; OSet [66] [3; 3]; ODel [66]; OSet [67] []])) in
  match merge c s [[67]; [65]] with
  | ROk (_, _, t) => no_write_after_unlink t false = true /\
                     t = [SCreate (FData 2); SCreate (FHint 2); SWrite (FData 2) (enc_entry (mkEntry 5 [67] (Some [])));
                          SWrite (FHint 2) (enc_hint (mkHint 5 26 0 [67])); SWrite (FData 2) (enc_entry (mkEntry 2 [65] (Some [2])));
                          SWrite (FHint 2) (enc_hint (mkHint 2 27 26 [65])); SFsync (FData 2); SFsync (FHint 2);
                          SUnlink (FData 0); SUnlink (FData 1); SCreate (FData 3)]
  | _ => False
  end.
Proof. vm_compute. split; reflexivity. Qed.
