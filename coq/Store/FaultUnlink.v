(* Store/FaultUnlink.v — the removal loop of a merge pass with a failing unlink.
   The loop walks the selected files in ascending order; for each it removes the hint file, the data
   file, and the file's row of the statistics.  When an unlink fails the pass stops with an error.
   What matters for every LATER merge is the invariant that [select] rests on (Store/Merge.v,
   select_ok): a file that holds records has a row ("rows cover files"), because the selection is
   closed downwards over the files that have rows.  Order A (repaired code, e043e9c): unlink first,
   forget the row afterwards — the invariant survives a failure at any point.  Order B (pinned code):
   forget the row first — after a failed unlink the file is still there without a row, no later pass
   selects it, and the newer files holding the tombstones for its values can be merged away. *)
From BC Require Import Base.Bytes Store.Codec Store.Engine Store.Log Store.Step Store.Cons Store.Inv Store.Refine Store.MergeLemmas Store.Merge
  Store.Sizes Store.Theorems.
Open Scope N_scope.

Definition rows_cover (d : dir) (x : stats_t) : Prop :=
  forall g, has_file (log_of_dir d) g = true -> sget x g <> None.

(* the state of directory and statistics when the unlink of the (j+1)-th selected file has failed *)
Definition failed_unlink (row_first : bool) (d : dir) (x : stats_t) (sel : list N) (j : nat) : dir * stats_t :=
  let '(d', x', _) := unlink_all d x (firstn j sel) [] in
  match skipn j sel with
  | id :: _ => (d', if row_first then adel x' id else x')
  | [] => (d', x')
  end.

Lemma rows_cover_filter (S : N -> bool) (d : dir) (x x' : stats_t) : rows_cover d x ->
  (forall g, sget x' g = if S g then None else sget x g) -> rows_cover (dir_filter S d) x'.
Proof.
  intros H Hx g Hg. rewrite log_dir_filter, has_file_filter in Hg. apply andb_true_iff in Hg as [HS Hg].
  apply negb_true_iff in HS. rewrite Hx, HS. exact (H g Hg).
Qed.

(* Order A: whatever unlink fails, rows still cover files *)
Theorem unlink_first_keeps_rows d x sel j : sorted d -> rows_cover d x ->
  let '(d', x') := failed_unlink false d x sel j in rows_cover d' x'.
Proof.
  intros Hs H. unfold failed_unlink. pose proof (unlink_all_spec (firstn j sel) d x [] Hs) as Hun.
  destruct (unlink_all d x (firstn j sel) []) as [[d' x'] t']. destruct Hun as [-> Hx].
  destruct (skipn j sel); exact (rows_cover_filter _ d x x' H Hx).
Qed.

(* Order B is refuted: value in file 0, tombstone in file 1, both selected; the unlink of file 0 fails
   after its row was dropped.  File 0 holds a record but has no row; the next selection (closed
   downwards over ROWS) can therefore take file 1 without file 0. *)
Definition ex_dir : dir :=
  [(0, mkFile [mkEntry 1 [107] (Some [118])] None); (1, mkFile [mkEntry 2 [107] None] None); (2, mkFile [] None)].
Definition ex_stats : stats_t := aset (aset [] 0 (mkCnt 0 1 0)) 1 (mkCnt 0 1 18).

Example row_first_loses_a_file :
  let '(d', x') := failed_unlink true ex_dir ex_stats [0; 1] 0 in
  has_file (log_of_dir d') 0 = true /\ sget x' 0 = None /\ sget x' 1 <> None.
Proof. vm_compute. split; [reflexivity|]. split; [reflexivity|discriminate]. Qed.

Example unlink_first_same_point :
  let '(d', x') := failed_unlink false ex_dir ex_stats [0; 1] 0 in
  has_file (log_of_dir d') 0 = true /\ sget x' 0 <> None.
Proof. vm_compute. split; [reflexivity|discriminate]. Qed.

(* the invariant is the one [Inv] provides *)
Lemma inv_rows_cover s : Inv s -> rows_cover (s_dir s) (s_stats s).
Proof.
  intros HI g Hg. fold (slog s) in Hg. rewrite <- (cons_hasrow _ _ _ _ g (Inv_cons s HI) eq_refl) in Hg. unfold hasrow in Hg.
  destruct (sget (s_stats s) g); congruence.
Qed.

(* What "rows cover files" buys: every selection is closed downwards over the files that hold records.  No invariant of the engine is assumed: this holds in the states the fault paths leave behind (a failed unlink, a
   failed fsync with the repaired bookkeeping), which are outside [Inv].  It is the reason a tombstone is never merged
   away while an older file still holds the value it shadows. *)
Theorem rows_make_selection_closed c s sel0 : rows_cover (s_dir s) (s_stats s) -> select c s = ROk sel0 ->
  forall id g, mem id sel0 = true -> has_file (log_of_dir (s_dir s)) g = true -> g <= id -> mem g sel0 = true.
Proof.
  intros HR Hsel id g Hid Hg Hle. destruct (select_shape c s sel0 Hsel) as (bound & Hb).
  rewrite Hb in Hid. apply andb_true_iff in Hid as [_ Hid]. destruct bound as [b|]; [|discriminate].
  rewrite Hb. apply andb_true_iff. split.
  - pose proof (HR g Hg) as Hrow. unfold hasrow. destruct (sget (s_stats s) g); congruence.
  - apply N.leb_le. apply N.leb_le in Hid. lia.
Qed.
