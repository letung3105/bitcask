(* Store/Sizes.v — the merge loop and the whole pass, for every iteration order that visits each
   key once: the invariant holds again, every key reads what it read (C05), and the bytes left are
   the kept files plus one copy of every record that was live in a selected file (C13). *)
From BC Require Import Store.Engine Store.Log Store.Step Store.Cons Store.Inv Store.Refine Store.MergeLemmas Store.Merge.
Open Scope N_scope.

Fixpoint lsize (L : list lentry) : N := match L with [] => 0 | en :: L' => esize en + lsize L' end.
Definition dir_size (d : dir) : N := lsize (log_of_dir d).

Lemma lsize_app L1 L2 : lsize (L1 ++ L2) = lsize L1 + lsize L2.
Proof. induction L1 as [|en L1 IH]; cbn [app lsize]; [reflexivity|]. rewrite IH. lia. Qed.

Lemma lsize_log_file fid es pos : lsize (log_file fid es pos) = data_size es.
Proof. revert pos. induction es as [|e es IH]; intros pos; cbn [log_file lsize data_size esize]; [reflexivity|]. rewrite IH. reflexivity. Qed.

(* the total size of the data files, as the file system reports it *)
Fixpoint files_size (d : dir) : N := match d with [] => 0 | (_, f) :: d' => data_size (d_data f) + files_size d' end.
Lemma dir_size_files d : dir_size d = files_size d.
Proof. unfold dir_size. induction d as [|[i f] d IH]; cbn [log_of_dir files_size lsize]; [reflexivity|]. rewrite lsize_app, lsize_log_file, IH. reflexivity. Qed.

(* bytes of the records that are live and sit in a file of [S] *)
Fixpoint bliveS (S : N -> bool) (L : list lentry) (i : index) : N :=
  match L with
  | [] => 0
  | en :: L' => (if S (fid_of en) && is_live i en then esize en else 0) + bliveS S L' i
  end.

Lemma bliveS_app S L1 L2 i : bliveS S (L1 ++ L2) i = bliveS S L1 i + bliveS S L2 i.
Proof. induction L1 as [|en L1 IH]; cbn [app bliveS]; [reflexivity|]. rewrite IH. lia. Qed.

Lemma bliveS_le S L i : bliveS S L i <= lsize L.
Proof. induction L as [|en L IH]; cbn [bliveS lsize]; [lia|]. destruct (S (fid_of en) && is_live i en); lia. Qed.

Lemma bliveS_none S L i : Forall (fun en => S (fid_of en) = false) L -> bliveS S L i = 0.
Proof. induction 1 as [|en L Hx HL IH]; cbn [bliveS]; [reflexivity|]. rewrite Hx, IH. reflexivity. Qed.

Lemma bliveS_all S L i : Forall (fun en => S (fid_of en) = true) L ->
  bliveS S L i = bliveS (fun _ => true) L i.
Proof. induction 1 as [|en L Hx HL IH]; cbn [bliveS]; [reflexivity|]. rewrite Hx, IH. reflexivity. Qed.

Lemma bliveS_agree S L i1 i2 : (forall r, In r L -> is_live i1 r = is_live i2 r) -> bliveS S L i1 = bliveS S L i2.
Proof.
  induction L as [|en L IH]; intros H; cbn [bliveS]; [reflexivity|].
  rewrite IH, (H en) by (intros; apply H; right; assumption) || (left; reflexivity). reflexivity.
Qed.

Lemma bliveS_ext S S' L i : (forall g, S g = S' g) -> bliveS S L i = bliveS S' L i.
Proof. intros H. induction L as [|en L IH]; cbn [bliveS]; [reflexivity|]. rewrite IH, H. reflexivity. Qed.

Lemma bliveS_zero S L i : (forall k l, iget i k = Some l -> S (l_fid l) = false) -> bliveS S L i = 0.
Proof.
  intros H. induction L as [|[[f p] e] L IH]; cbn [bliveS fid_of is_live]; [reflexivity|]. rewrite IH.
  destruct (iget i (e_key e)) as [l|] eqn:E; [|rewrite andb_false_r; reflexivity].
  destruct (N.eqb_spec (l_fid l) f) as [<-|]; [|rewrite andb_false_r; reflexivity].
  rewrite (H _ _ E). reflexivity.
Qed.

Lemma occb_app L1 L2 g p k : occb (L1 ++ L2) g p k = occb L1 g p k + occb L2 g p k.
Proof. induction L1 as [|en L1 IH]; cbn [app occb]; [reflexivity|]. rewrite IH. lia. Qed.

Lemma blive_snoc S (L : list lentry) i f p e l :
  wfL (L ++ [(f, p, e)]) -> (forall k, iget i k = lastloc L k None) ->
  iget i (e_key e) = Some l -> S (l_fid l) = true -> S f = false ->
  bliveS S (L ++ [(f, p, e)]) (idx_step i (f, p, e)) + l_len l = bliveS S L i.
Proof.
  intros Hw C1 Hk HSl HSf. pose proof (live_snoc L i f p e Hw C1) as H. rewrite Hk in H.
  destruct H as (L1 & f0 & p0 & e0 & L2 & -> & -> & Hl & Hd & Hsame). cbn [loc_of l_fid l_len] in *.
  rewrite !bliveS_app. cbn [bliveS fid_of esize]. rewrite Hl, Hd, HSl, HSf. cbn [andb].
  rewrite (bliveS_agree S L1 _ i), (bliveS_agree S L2 _ i) by (intros; apply Hsame, in_or_app; auto). lia.
Qed.

Lemma loop_full c s S sel : (forall g, S g = mem g sel) -> (forall g, S g = true -> g <= s_last s) ->
  forall ord m M, LI s S m M ->
  exists m' M', merge_loop c sel m ord = ROk m' /\ LI s S m' M' /\
    (forall k l, iget (m_idx m') k = Some l -> S (l_fid l) = true -> iget (m_idx m) k = Some l /\ existsb (beq k) ord = false) /\
    lsize M' + bliveS S (slog s ++ M') (m_idx m') = lsize M + bliveS S (slog s ++ M) (m_idx m) /\
    (forall g, dead (sget0 (m_stats m') g) = dead (sget0 (m_stats m) g)).
Proof.
  intros HS HSle ord m M HLI.
  set (P := fun ord' m' => exists M', LI s S m' M' /\
              (forall k l, iget (m_idx m') k = Some l -> S (l_fid l) = true ->
                 iget (m_idx m) k = Some l /\ (existsb (beq k) ord = true -> existsb (beq k) ord' = true)) /\
              lsize M' + bliveS S (slog s ++ M') (m_idx m') = lsize M + bliveS S (slog s ++ M) (m_idx m) /\
              (forall g, dead (sget0 (m_stats m') g) = dead (sget0 (m_stats m) g))).
  enough (exists m', merge_loop c sel m ord = ROk m' /\ P [] m') as (m' & Hl & M' & HLI' & Hin & Hsz & Hdd).
  { exists m', M'. split; [exact Hl|]. split; [exact HLI'|]. split; [|auto].
    intros k l Hk Hl'. destruct (Hin k l Hk Hl') as [Hk0 Hv]. split; [exact Hk0|].
    destruct (existsb (beq k) ord); [discriminate (Hv eq_refl)|reflexivity]. }
  apply (merge_loop_ind P (fun r => exists m', r = ROk m' /\ P [] m')); [eauto| |].
  - intros k ord' m1 (M1 & HLI1 & Hin & Hsz & Hdd).
    (* once [k] resolves outside [S] and the other keys as before, [k] needs no further visit *)
    assert (Hnext : forall i2, (forall k', beq k' k = false -> iget i2 k' = iget (m_idx m1) k') ->
                      (forall l, iget i2 k = Some l -> S (l_fid l) = false) ->
                      forall k' l, iget i2 k' = Some l -> S (l_fid l) = true ->
                        iget (m_idx m) k' = Some l /\ (existsb (beq k') ord = true -> existsb (beq k') ord' = true)).
    { intros i2 Hoth Hk k' l Hk' Hl. destruct (beq k' k) eqn:E; [apply beq_eq in E; subst k'; rewrite (Hk l Hk') in Hl; discriminate|].
      rewrite (Hoth k' E) in Hk'. destruct (Hin k' l Hk' Hl) as [Hk0 Hv]. split; [exact Hk0|].
      intros Ho. apply Hv in Ho. cbn [existsb] in Ho. rewrite E in Ho. exact Ho. }
    destruct (iget (m_idx m1) k) as [l|] eqn:Ek.
    2: { exists M1. split; [exact HLI1|]. split; [|auto]. apply Hnext; [reflexivity|]. intros l Hl. rewrite Ek in Hl. discriminate. }
    destruct (mem (l_fid l) sel) eqn:Em.
    2: { exists M1. split; [exact HLI1|]. split; [|auto]. apply Hnext; [reflexivity|]. intros l0 Hl. rewrite Ek in Hl. injection Hl as <-.
         rewrite HS. exact Em. }
    rewrite <- HS in Em.
    destruct (merge_one_ok c s S m1 M1 k l HLI1 HSle Ek Em)
      as (m2 & M2 & -> & HLI2 & e & HM2 & Hkey & Hval & Hlen & HSm & Hwf & Hidx & Hst).
    exists M2. split; [exact HLI2|]. split; [|split].
    + apply Hnext; rewrite Hidx.
      * intros k' E. apply idx_step_other. cbn [key_of]. rewrite Hkey. exact E.
      * cbn [idx_step]. destruct (e_val e); [|congruence]. rewrite iget_aset, Hkey, beq_refl. intros l2 Hl. injection Hl as <-. exact HSm.
    + rewrite <- Hkey in Ek.
      pose proof (blive_snoc S _ _ _ _ e l Hwf (proj1 (LI_cons _ _ _ _ HLI1)) Ek Em HSm) as Hb.
      rewrite HM2, lsize_app, app_assoc, Hidx. cbn [lsize esize]. lia.
    + intros g. rewrite <- Hdd, Hst, sget0_aset. destruct (N.eqb_spec g (m_id m1)) as [->|]; reflexivity.
  - exists M. split; [exact HLI|]. split; [|auto]. intros k l Hk _. split; [exact Hk|auto].
Qed.

Lemma merge_prep c s ord : Inv s -> merge_ready c s ord ->
  exists sel0 bound m M,
    let sel := sort_ids sel0 in let S := fun g => mem g sel in let id0 := s_last s + 1 in
    let d0 := s_dir s ++ [(id0, mkFile [] (Some []))] in
    let m0 := mkM d0 (s_idx s) (s_stats s) id0 0 id0 [SCreate (FHint id0); SCreate (FData id0)] in
    select c s = ROk sel0 /\
    (forall g, S g = hasrow (s_stats s) g && match bound with Some b => g <=? b | None => false end) /\
    (forall g, S g = true -> g <= s_last s) /\
    create_pair (s_dir s) id0 = Some d0 /\ LI s S m0 [] /\
    merge_loop c sel m0 ord = ROk m /\ LI s S m M /\
    (forall k l, iget (m_idx m) k = Some l -> S (l_fid l) = false) /\
    lsize M + bliveS S (slog s ++ M) (m_idx m) = bliveS S (slog s) (s_idx s) /\
    (forall g, dead (sget0 (m_stats m) g) = dead (sget0 (s_stats s) g)).
Proof.
  intros HI Hready. pose proof (Inv_dir_ok s HI) as (Hs & Hle & Hh).
  destruct (select_ok c s HI) as (sel0 & bound & Hsel & Hmem). exists sel0, bound.
  set (sel := sort_ids sel0). set (S := fun g => mem g sel).
  assert (HS : forall g, S g = hasrow (s_stats s) g && match bound with Some b => g <=? b | None => false end).
  { intros g. unfold S, sel. rewrite mem_sort_ids. apply Hmem. }
  assert (HSle : forall g, S g = true -> g <= s_last s).
  { intros g Hg. rewrite HS in Hg. apply andb_true_iff in Hg as [Hg _].
    rewrite (cons_hasrow _ _ _ _ g (Inv_cons s HI) eq_refl) in Hg.
    destruct (has_file_dir_get _ _ Hs Hg) as (f & Hget & _). apply dir_get_In in Hget. exact (ids_le_In _ _ _ _ Hle Hget). }
  assert (Hlt : s_last s < s_last s + 1) by lia.
  destruct (dir_snoc_fresh (s_dir s) (s_last s + 1) (mkFile [] (Some [])) Hs (ids_le_lt _ _ _ Hle Hlt) Hh hints_ok_empty)
    as (Hnone & Hset & Hok & Hget).
  set (d0 := s_dir s ++ [(s_last s + 1, mkFile [] (Some []))]) in *.
  set (m0 := mkM d0 (s_idx s) (s_stats s) (s_last s + 1) 0 (s_last s + 1) [SCreate (FHint (s_last s + 1)); SCreate (FData (s_last s + 1))]).
  assert (HLI0 : LI s S m0 []).
  { apply LI_intro; cbn [m0 m_dir m_idx m_stats m_id m_pos m_last]; rewrite ?app_nil_r;
      [exact Hok|reflexivity|lia| | |constructor|apply cons_weaken, (Inv_cons s HI)|reflexivity].
    - exists (mkFile [] (Some [])), []. auto.
    - unfold d0. rewrite log_of_dir_app. cbn [log_of_dir log_file d_data]. rewrite !app_nil_r. reflexivity. }
  destruct (loop_full c s S sel ltac:(reflexivity) HSle ord m0 [] HLI0) as (m & M & Hloop & HLI & Hstay & Hsize & Hdead).
  cbn [lsize m0 m_idx m_stats] in Hstay, Hsize, Hdead. rewrite app_nil_r in Hsize.
  exists m, M. cbv zeta. fold sel S d0 m0.
  split; [exact Hsel|]. split; [exact HS|]. split; [exact HSle|].
  split; [unfold create_pair; rewrite Hnone, Hset; reflexivity|]. split; [exact HLI0|]. split; [exact Hloop|].
  split; [exact HLI|]. split; [|split; [exact Hsize|exact Hdead]].
  (* an entry still pointing into a selected file was there at the start, so the order lists its key, so it was visited *)
  intros k l Hk. destruct (S (l_fid l)) eqn:ES; [|reflexivity]. destruct (Hstay k l Hk ES) as [Hk0 Hnv].
  rewrite (ord_ok_visits s sel ord k l (Hready sel0 Hsel) Hk0 ES) in Hnv. discriminate.
Qed.

Theorem merge_full c s ord : Inv s -> merge_ready c s ord ->
  exists s' t sel0, merge c s ord = ROk (s', tt, t) /\ select c s = ROk sel0 /\ Inv s' /\
    (forall k, abs s' k = abs s k) /\ s_clock s' = s_clock s /\
    dir_size (s_dir s') = lsize (filter (keep (fun g => mem g sel0)) (slog s)) + bliveS (fun g => mem g sel0) (slog s) (s_idx s) /\
    (forall g, mem g sel0 = true -> sget (s_stats s') g = None) /\
    (forall g, mem g sel0 = false -> sget (s_stats s) g = None -> dead (sget0 (s_stats s') g) = 0).
Proof.
  intros HI Hready.
  destruct (merge_prep c s ord HI Hready) as (sel0 & bound & m & M & Hsel & HS & HSle & Hcp & _ & Hloop & HLI & E1 & Hsize & Hdead).
  cbv zeta in *. unfold merge, merge_with. rewrite Hsel, (Hready sel0 Hsel). cbn [negb]. rewrite Hcp, Hloop.
  set (sel := sort_ids sel0) in *. set (S := fun g => mem g sel) in *.
  assert (HSsel : forall g, S g = mem g sel0) by (intros g; apply mem_sort_ids).
  pose proof (LI_dir_ok _ _ _ _ HLI) as Hokm.
  destruct HLI as (_ & _ & _ & Hidm & _ & _ & Hlogm & HMm & HCm & HVm).
  pose proof (unlink_all_spec sel (m_dir m) (m_stats m) (SFsync (FHint (m_id m)) :: SFsync (FData (m_id m)) :: m_trace m) (proj1 Hokm)) as Hun.
  destruct (unlink_all (m_dir m) (m_stats m) sel _) as [[d2 x2] t2]. destruct Hun as [Ed2 Hx2]. fold S in Ed2.
  assert (Hlog2 : log_of_dir d2 = filter (keep S) (slog s ++ M)) by (rewrite Ed2, log_dir_filter, Hlogm; reflexivity).
  (* the selected records are a prefix of the old log, and no key resolves into it any more *)
  destruct (log_prefix_on (s_dir s) (fun g => match bound with Some b => g <=? b | None => false end) S (Inv_sorted s HI))
    as (LS & LR & Esplit & HLS & HLR).
  { intros i j Hij Hj. destruct bound as [b|]; [|discriminate]. apply N.leb_le in Hj. apply N.leb_le. lia. }
  { intros [[f p] e] Hin. cbn [fid_of]. unfold S. rewrite HS, (cons_hasrow _ _ _ _ f (Inv_cons s HI) eq_refl).
    rewrite (proj2 (has_file_In (slog s) f)) by eauto. reflexivity. }
  fold (slog s) in Esplit.
  assert (Hdrop : forall k, lastloc (slog s ++ M) k None = lastloc (filter (keep S) (slog s ++ M)) k None /\
                            lastval (slog s ++ M) k None = lastval (filter (keep S) (slog s ++ M)) k None).
  { rewrite Esplit, <- app_assoc, !filter_app, (filter_keep_none S LS HLS), (filter_keep_all S LR HLR), (filter_keep_all S M HMm).
    apply (drop_prefix LS (LR ++ M) (m_idx m) S); [rewrite app_assoc, <- Esplit; apply HCm|exact E1|exact HLS]. }
  assert (HC2 : cons (log_of_dir d2) (m_idx m) x2).
  { rewrite Hlog2. apply (cons_ex_filter S _ _ (m_stats m)); [exact HCm|intros k; symmetry; apply Hdrop|exact Hx2]. }
  pose proof (dir_filter_ok S (m_dir m) (m_id m) Hokm) as Hok2. rewrite <- Ed2, Hidm in Hok2.
  destruct (new_active_ok (mkSt d2 (m_idx m) x2 (s_active s) (s_written s) (m_last m) true (s_clock s)) Hok2 HC2)
    as (s3 & Hna & HI3 & Hlog3 & _ & Hx3 & Hclk).
  rewrite Hna. exists s3. eexists _, sel0. split; [reflexivity|]. split; [reflexivity|]. split; [exact HI3|].
  unfold slog at 2 in Hlog3. cbn [s_dir s_stats s_clock] in Hlog3, Hx3, Hclk.
  split; [|split; [exact Hclk|split; [|split]]].
  - intros k. unfold abs. rewrite Hlog3, Hlog2, <- (HVm k). symmetry. apply Hdrop.
  - unfold dir_size. fold (slog s3). rewrite Hlog3, Hlog2, filter_app, (filter_keep_all S M HMm), lsize_app. rewrite (bliveS_zero S _ _ E1) in Hsize.
    rewrite (filter_ext (keep S) (keep (fun g => mem g sel0))) by (intros [[f0 p0] e0]; cbn [keep]; rewrite HSsel; reflexivity).
    rewrite (bliveS_ext _ S) by (intros; symmetry; apply HSsel). lia.
  - intros g Hg. rewrite Hx3, Hx2. fold (S g). rewrite HSsel, Hg. reflexivity.
  - (* a row the loop created: only add_live was ever applied to it *)
    intros g Hns Hold. unfold sget0. rewrite Hx3, Hx2. fold (S g). rewrite HSsel, Hns.
    specialize (Hdead g). unfold sget0 in Hdead. rewrite Hold in Hdead. exact Hdead.
Qed.

Theorem merge_ok c s ord : Inv s -> merge_ready c s ord ->
  exists s' t, merge c s ord = ROk (s', tt, t) /\ Inv s' /\ (forall k, abs s' k = abs s k) /\ s_clock s' = s_clock s.
Proof.
  intros HI Hr. destruct (merge_full c s ord HI Hr) as (s' & t & sel0 & Hm & _ & HI' & Ha & Hc & _).
  exists s', t. split; [exact Hm|]. split; [exact HI'|]. split; [exact Ha|exact Hc].
Qed.
