(* Store/Cons.v — appending one record keeps (index, counters) consistent with the log, with the
   exact counter arithmetic of the code (no underflow); recovery (data scan, hint scan, whole
   directory) is a fold of such steps. *)
From BC Require Import Store.Engine Store.Log Store.Step.
Open Scope N_scope.

Definition stats_step (x : stats_t) (i : index) (en : lentry) : option stats_t :=
  let '(f, p, e) := en in
  let x1 := aset x f (if is_value en then add_live (sget0 x f) else add_dead (sget0 x f) (entry_size e)) in
  match iget i (e_key e) with
  | Some prev => account_overwrite x1 prev
  | None => Some x1
  end.

Lemma is_live_ext i1 i2 en : (forall k, iget i1 k = iget i2 k) -> is_live i1 en = is_live i2 en.
Proof. intros H. destruct en as [[f p] e]. cbn [is_live]. rewrite H. reflexivity. Qed.

Lemma cons_ex_ext S L i1 i2 x1 x2 :
  (forall k, iget i1 k = iget i2 k) -> (forall g, sget x1 g = sget x2 g) -> cons_ex S L i1 x1 -> cons_ex S L i2 x2.
Proof.
  intros Hi Hx (C1 & C2 & C3).
  assert (Hl : forall r, In r L -> is_live i2 r = is_live i1 r) by (intros; symmetry; apply is_live_ext, Hi).
  split; [intros k; rewrite <- Hi; apply C1|]. split; intros g Hg.
  - unfold sget0. rewrite <- Hx. destruct (counts_agree L i2 i1 g Hl) as (-> & -> & ->). apply C2. exact Hg.
  - rewrite <- Hx. apply C3. exact Hg.
Qed.

Lemma adel_absent (i : index) k : iget i k = None -> forall k', iget (adel i k) k' = iget i k'.
Proof. intros H k'. rewrite iget_adel. destruct (beq_spec k' k) as [->|]; [symmetry; exact H|reflexivity]. Qed.

Lemma cons_fun L i1 x1 i2 x2 : cons L i1 x1 -> cons L i2 x2 ->
  (forall k, iget i1 k = iget i2 k) /\ (forall g, sget0 x1 g = sget0 x2 g).
Proof.
  intros (A1 & A2 & _) (B1 & B2 & _).
  assert (Hi : forall k, iget i1 k = iget i2 k) by (intros; rewrite A1, B1; reflexivity).
  assert (Hl : forall r, In r L -> is_live i1 r = is_live i2 r) by (intros; apply is_live_ext, Hi).
  split; [exact Hi|]. intros g. destruct (A2 g eq_refl) as (a & b & c), (B2 g eq_refl) as (a' & b' & c').
  destruct (counts_agree L i1 i2 g Hl) as (E1 & E2 & E3). rewrite E1 in a. rewrite E2 in b. rewrite E3 in c.
  destruct (sget0 x1 g) as [l1 d1 b1], (sget0 x2 g) as [l2 d2 b2]. cbn [live dead dead_bytes] in *. congruence.
Qed.

Lemma cons_old S L i x k prev : cons_ex S L i x -> iget i k = Some prev -> S (l_fid prev) = false ->
  1 <= live (sget0 x (l_fid prev)) /\ sget x (l_fid prev) <> None.
Proof.
  intros (C1 & C2 & C3) Hk HS. pose proof Hk as Hl. rewrite C1 in Hl.
  destruct (lastloc_some _ _ _ Hl) as (L1 & f & p & e & L2 & -> & -> & <- & _ & _). cbn [loc_of l_fid] in *.
  destruct (C2 f HS) as (Lf & _). split.
  - rewrite Lf, nlive_app. cbn [nlive in_file]. rewrite (is_live_at i f p e _ Hk). cbn [at_pos loc_of l_fid l_pos].
    rewrite !N.eqb_refl. cbn [andb]. lia.
  - intros Hn. apply (C3 f HS) in Hn. rewrite has_file_app in Hn. cbn [has_file existsb in_file] in Hn.
    rewrite N.eqb_refl, orb_true_r in Hn. discriminate.
Qed.

Lemma cons_ex_snoc S (L : list lentry) i x x' f p e :
  wfL (L ++ [(f, p, e)]) -> cons_ex S L i x ->
  let o := iget i (e_key e) in let v := is_value (f, p, e) in
  (forall g, S g = false ->
     live (sget0 x' g) + b2n (old_in o g) = live (sget0 x g) + b2n ((f =? g) && v) /\
     dead (sget0 x' g) = dead (sget0 x g) + b2n (old_in o g) + b2n ((f =? g) && negb v) /\
     dead_bytes (sget0 x' g) = dead_bytes (sget0 x g) + (if old_in o g then old_len o else 0) +
                               (if (f =? g) && negb v then entry_size e else 0)) ->
  (forall g, S g = false -> (sget x' g = None <-> sget x g = None /\ f <> g)) ->
  cons_ex S (L ++ [(f, p, e)]) (idx_step i (f, p, e)) x'.
Proof.
  intros Hw (C1 & C2 & C3) o v Hx Hr. split; [apply idx_step_lastloc; exact C1|]. split; intros g Hg.
  - destruct (counts_snoc L i f p e Hw C1 g) as (HL & HD & HB). destruct (C2 g Hg) as (Lg & Dg & Bg).
    destruct (Hx g Hg) as (XL & XD & XB). fold o v in HL, HD, HB. repeat split; lia.
  - rewrite (Hr g Hg), has_file_snoc, (C3 g Hg), orb_false_iff, N.eqb_neq. reflexivity.
Qed.

Theorem step_full L i x f p e :
  wfL (L ++ [(f, p, e)]) -> cons L i x ->
  exists x', stats_step x i (f, p, e) = Some x' /\ cons (L ++ [(f, p, e)]) (idx_step i (f, p, e)) x'.
Proof.
  intros Hw HC. unfold stats_step. set (v := is_value (f, p, e)).
  set (c1 := if v then add_live (sget0 x f) else add_dead (sget0 x f) (entry_size e)).
  assert (Hc1 : live c1 = live (sget0 x f) + b2n v /\ dead c1 = dead (sget0 x f) + b2n (negb v) /\
                dead_bytes c1 = dead_bytes (sget0 x f) + (if negb v then entry_size e else 0)).
  { subst c1. destruct v; cbn [add_live add_dead live dead dead_bytes b2n negb]; repeat split; lia. }
  clearbody c1. destruct Hc1 as (Hl1 & Hd1 & Hb1).
  destruct (iget i (e_key e)) as [prev|] eqn:Ep.
  - (* an older record of the key dies: its row exists and has a live record to give up *)
    destruct (cons_old _ L i x _ prev HC Ep eq_refl) as [Hlive Hrow].
    unfold account_overwrite, overwrite. rewrite sget0_aset.
    assert (Hcp : live (if l_fid prev =? f then c1 else sget0 x (l_fid prev)) <> 0).
    { destruct (N.eqb_spec (l_fid prev) f) as [E|E]; [rewrite <- E in Hl1|]; lia. }
    rewrite (proj2 (N.eqb_neq _ _) Hcp). eexists. split; [reflexivity|].
    apply (cons_ex_snoc _ L i x _ f p e Hw HC); intros g _.
    + rewrite Ep. fold v. cbn [old_in old_len]. rewrite !sget0_aset, (N.eqb_sym (l_fid prev) g), (N.eqb_sym f g).
      destruct (N.eqb_spec g (l_fid prev)) as [->|Hgp].
      * destruct (N.eqb_spec (l_fid prev) f) as [<-|E]; cbn [andb b2n live dead dead_bytes]; lia.
      * destruct (N.eqb_spec g f) as [->|Hgf]; cbn [andb b2n]; lia.
    + rewrite !sget_aset. destruct (N.eqb_spec g (l_fid prev)) as [->|Hgp]; [split; [discriminate|tauto]|].
      destruct (N.eqb_spec g f) as [->|Hgf]; [split; [discriminate|tauto]|]. split; [auto|tauto].
  - eexists. split; [reflexivity|].
    apply (cons_ex_snoc _ L i x _ f p e Hw HC); intros g _.
    + rewrite Ep. fold v. cbn [old_in old_len b2n]. rewrite sget0_aset, (N.eqb_sym f g).
      destruct (N.eqb_spec g f) as [->|Hgf]; cbn [andb b2n]; lia.
    + rewrite sget_aset. destruct (N.eqb_spec g f) as [->|Hgf]; [split; [discriminate|tauto]|]. split; [auto|tauto].
Qed.

Definition all_values (es : list entry) : Prop := Forall (fun e => e_val e <> None) es.

Fixpoint hints_of (es : list entry) (pos : N) : list hint :=
  match es with
  | [] => []
  | e :: es' => mkHint (e_ts e) (entry_size e) pos (e_key e) :: hints_of es' (pos + entry_size e)
  end.

Definition hints_ok (f : dfile) : Prop :=
  match d_hint f with
  | None => True
  | Some hs => hs = hints_of (d_data f) 0 /\ all_values (d_data f)
  end.

Lemma hints_ok_nohint f : d_hint f = None -> hints_ok f.
Proof. unfold hints_ok. intros ->. exact I. Qed.

Lemma hints_ok_some f hs : hints_ok f -> d_hint f = Some hs -> hs = hints_of (d_data f) 0 /\ all_values (d_data f).
Proof. unfold hints_ok. intros H E. rewrite E in H. exact H. Qed.

Lemma hints_ok_empty : hints_ok (mkFile [] (Some [])).
Proof. split; [reflexivity|constructor]. Qed.

Lemma data_size_app a b : data_size (a ++ b) = data_size a + data_size b.
Proof. induction a as [|e a IH]; cbn [app data_size]; [reflexivity|]. rewrite IH. lia. Qed.

Lemma hints_of_app es1 es2 pos : hints_of (es1 ++ es2) pos = hints_of es1 pos ++ hints_of es2 (pos + data_size es1).
Proof.
  revert pos. induction es1 as [|e es1 IH]; intros pos; cbn [app hints_of data_size].
  - rewrite N.add_0_r. reflexivity.
  - rewrite IH, N.add_assoc. reflexivity.
Qed.

Lemma hints_of_firstn : forall es n pos, firstn n (hints_of es pos) = hints_of (firstn n es) pos.
Proof. induction es as [|e es IH]; intros [|n] pos; cbn [firstn hints_of]; try reflexivity. rewrite IH. reflexivity. Qed.

Lemma hints_of_length es pos : length (hints_of es pos) = length es.
Proof. revert pos. induction es as [|e es IH]; intros pos; cbn [hints_of length]; [reflexivity|]. rewrite IH. reflexivity. Qed.

Lemma hints_of_nth : forall es pos n h rest, skipn n (hints_of es pos) = h :: rest -> h_pos h + h_len h = pos + data_size (firstn (S n) es).
Proof.
  induction es as [|e es IH]; intros pos n h rest H; [destruct n; discriminate|].
  destruct n as [|n]; cbn [skipn hints_of] in H.
  - inversion H; subst. cbn [h_pos h_len firstn data_size]. lia.
  - specialize (IH _ _ _ _ H). cbn [firstn data_size]. cbn [firstn] in IH. lia.
Qed.

Lemma hints_ok_snoc f hs e : hints_ok f -> d_hint f = Some hs -> e_val e <> None ->
  hints_ok (mkFile (d_data f ++ [e]) (Some (hs ++ [mkHint (e_ts e) (entry_size e) (data_size (d_data f)) (e_key e)]))).
Proof.
  intros Hok Hh Hv. destruct (hints_ok_some f hs Hok Hh) as [-> Hav]. unfold hints_ok. cbn [d_hint d_data]. split.
  - rewrite hints_of_app. cbn [hints_of]. rewrite N.add_0_l. reflexivity.
  - apply Forall_app. split; [exact Hav|]. constructor; [exact Hv|constructor].
Qed.

Lemma load_data_cons fid : forall es pos L i x,
  wfL (L ++ log_file fid es pos) -> cons L i x ->
  exists i' x', load_data fid es pos (i, x) = Some (i', x') /\ cons (L ++ log_file fid es pos) i' x'.
Proof.
  induction es as [|e es IH]; intros pos L i x Hw HC; cbn [load_data log_file] in *.
  - rewrite app_nil_r. eauto.
  - assert (E : forall T, L ++ (fid, pos, e) :: T = (L ++ [(fid, pos, e)]) ++ T) by (intros; rewrite <- app_assoc; reflexivity).
    rewrite E in *.
    destruct (step_full L i x fid pos e (wfL_app_l _ _ Hw) HC) as (x1 & Hs & HC1).
    unfold stats_step in Hs. cbn [is_value] in Hs. cbn [idx_step] in HC1.
    destruct (e_val e) as [v|].
    + cbn [ins_loc l_fid]. destruct (iget i (e_key e)) as [prev|]; [rewrite Hs|injection Hs as <-]; apply IH; assumption.
    + destruct (iget i (e_key e)) as [prev|] eqn:Ep; [rewrite Hs|injection Hs as <-]; apply IH; try assumption.
      eapply cons_ex_ext; [exact (adel_absent i _ Ep)|reflexivity|exact HC1].
Qed.

Lemma load_hints_is_load_data fid : forall es pos datalen ix,
  all_values es -> pos + data_size es <= datalen ->
  load_hints fid datalen (hints_of es pos) ix = load_data fid es pos ix.
Proof.
  induction es as [|e es IH]; intros pos datalen [i x] Hv Hlen; [reflexivity|].
  inversion Hv as [|? ? Hve Hv']; subst. cbn [hints_of load_hints load_data h_pos h_len h_key h_ts data_size] in *.
  replace (datalen <? pos + entry_size e) with false by (symmetry; apply N.ltb_ge; lia).
  destruct (e_val e) as [v|]; [|congruence].
  destruct (ins_loc (i, x) (e_key e) _) as [ix'|]; [|reflexivity].
  apply IH; [assumption|lia].
Qed.

Theorem rebuild_cons : forall d L i x,
  wfL (L ++ log_of_dir d) -> (forall id f, In (id, f) d -> hints_ok f) -> cons L i x ->
  exists i' x', rebuild_files d (i, x) = Some (i', x') /\ cons (L ++ log_of_dir d) i' x'.
Proof.
  induction d as [|[fid f] d IH]; intros L i x Hw Hh HC.
  - cbn [rebuild_files log_of_dir]. rewrite app_nil_r. eauto.
  - cbn [log_of_dir] in *. rewrite app_assoc in Hw |- *.
    assert (Hw1 : wfL (L ++ log_file fid (d_data f) 0)) by (eapply wfL_app_l; exact Hw).
    destruct (load_data_cons fid (d_data f) 0 L i x Hw1 HC) as (i1 & x1 & Hl & HC1).
    cbn [rebuild_files].
    assert (Hload : match d_hint f with
                    | Some hs => load_hints fid (data_size (d_data f)) hs (i, x)
                    | None => load_data fid (d_data f) 0 (i, x)
                    end = Some (i1, x1)).
    { destruct (d_hint f) as [hs|] eqn:Eh; [|exact Hl].
      destruct (hints_ok_some f hs (Hh fid f (or_introl eq_refl)) Eh) as [-> Hv].
      rewrite load_hints_is_load_data; [exact Hl|exact Hv|lia]. }
    rewrite Hload. apply IH; [exact Hw| |exact HC1].
    intros id g Hin. apply (Hh id g). right. exact Hin.
Qed.
