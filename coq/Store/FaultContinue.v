(* Store/FaultContinue.v — the running process after a put or delete that failed in its append or while
   replacing the active file (C20, in-process half for these faults).

   What the code does on such a failure (Writer::write, Writer::new_active_datafile): the index and the
   statistics are not touched, `stale` is set (nothing may be appended behind what the failed append left),
   and `last_fileid` may already have been advanced by a create that failed.  [faulted x]: x is such a
   state: with the flag cleared and `last_fileid` set back ([base_of x]) it is an invariant state (at the
   record level the directory is unchanged: a partly written record is not a record).

   Proved in two steps.  Without the write buffer ([step_good], [run_good]): from a faulted state every script
   answers exactly as the map the state holds, as if the failed operation had not been issued, and the next
   successful put or delete first replaces the active file and re-establishes the invariant; a merge pass is
   covered when no create had failed (s_last unchanged).  With the record the failed append left in the write
   buffer ([step_r_good], [run_r_good]): it is invisible while the process runs, the next put, delete or merge
   discards it, and a reopen before any of these writes it out, so that there the failed operation does take
   effect: the specification is the map with one pending operation ([specr_step]).
   The faults that leave a complete unindexed record behind (fsync failing after the append, rollover failing
   after the append) are not in this model; they are decided by the fault sweep of the C20 check. *)
From BC Require Import Base.Bytes Store.Codec Store.Engine Store.Log Store.Step Store.Cons Store.Inv Store.Refine
  Store.MergeLemmas Store.Merge Store.Sizes Store.Theorems.
Open Scope N_scope.

Definition base_of (x : st) : st :=
  mkSt (s_dir x) (s_idx x) (s_stats x) (s_active x) (s_written x) (s_active x) false (s_clock x).

Definition faulted (x : st) : Prop :=
  s_stale x = true /\ s_active x <= s_last x /\ Inv (base_of x).

Lemma inv_clock s t : Inv s -> Inv (mkSt (s_dir s) (s_idx s) (s_stats s) (s_active s) (s_written s) (s_last s) (s_stale s) t).
Proof. intros H. exact H. Qed.

(* [after_failed_append s clk] and [after_failed_creates s clk n] are of this form *)
Lemma failed_write_faulted s l clk : Inv s -> s_last s <= l ->
  faulted (mkSt (s_dir s) (s_idx s) (s_stats s) (s_active s) (s_written s) l true clk).
Proof.
  intros HI Hl. split; [reflexivity|]. split; [cbn [s_active s_last]; rewrite (Inv_last s HI); exact Hl|].
  pose proof (Inv_ext s (s_written s) clk HI) as H. rewrite <- (Inv_last s HI), (Inv_stale s HI) in H. exact H.
Qed.

Definition fabs (x : st) : bytes -> option bytes := abs (base_of x).

(* a put or delete first replaces the active file, and goes on from the invariant state [h] it then has *)
Lemma step_write_faulted c x o : faulted x -> is_write o ->
  exists h t1, new_active x = ROk (h, t1) /\ Inv h /\ (forall k', abs h k' = fabs x k') /\
    step c x o = let '(s2, r, t2) := step c h o in (s2, r, t1 ++ t2).
Proof.
  intros (Hst & Hle & HI) Ho. pose proof (Inv_dir_ok _ HI) as (Hs & Hids & Hh). cbn [base_of s_dir s_last] in Hs, Hids, Hh.
  destruct (new_active_ok x (conj Hs (conj (ids_le_weaken _ _ _ Hids Hle) Hh)) (Inv_cons _ HI)) as (h & Hn & HIh & Hlog & _).
  exists h, [SCreate (FData (s_last x + 1))]. split; [exact Hn|]. split; [exact HIh|].
  split; [exact (abs_log x h Hlog)|].
  assert (Hw : forall k v, write c x k v = match write c h k v with
                                           | ROk (s2, l, t2) => ROk (s2, l, [SCreate (FData (s_last x + 1))] ++ t2)
                                           | RFail e => RFail e | RPanicked e => RPanicked e
                                           end).
  { intros k v. rewrite (write_stale c x k v Hst), Hn. reflexivity. }
  destruct o as [k v|k|k|ord| |t]; try destruct Ho; cbn [step].
  - destruct (append_ok c h k (Some v) HIh) as (s1 & l & t & x' & Hw1 & _ & Hi1 & Hacc & _).
    unfold put. rewrite Hw, Hw1, Hi1. destruct (iget (s_idx h) k); [rewrite Hacc|]; reflexivity.
  - destruct (append_ok c h k None HIh) as (s1 & l & t & x' & Hw1 & _ & Hi1 & Hacc & _).
    unfold delete. rewrite Hw, Hw1, Hi1. destruct (iget (s_idx h) k); [rewrite Hacc|]; reflexivity.
Qed.

(* a merge pass is covered when no create had failed before it *)
Definition fop_ready (c : cfg) (x : st) (o : op) : Prop :=
  match o with OMerge ord => s_last x = s_active x /\ merge_ready c (base_of x) ord | _ => True end.

Definition good (x : st) : Prop := Inv x \/ faulted x.
Definition gabs (x : st) : bytes -> option bytes := if s_stale x then fabs x else abs x.

(* the map a state holds is read off its directory: neither the flag nor [s_last] enters *)
Lemma gabs_abs x : gabs x = abs x.
Proof. unfold gabs. destruct (s_stale x); reflexivity. Qed.

Definition gop_ready (c : cfg) (x : st) (o : op) : Prop := if s_stale x then fop_ready c x o else op_ready c x o.

Lemma merge_ignores_flag c x ord : s_last x = s_active x -> merge c x ord = merge c (base_of x) ord.
Proof.
  intros E. unfold merge, merge_with, select, base_of, ord_ok. cbn [s_dir s_idx s_stats s_active s_written s_last s_clock]. rewrite E. reflexivity.
Qed.

Theorem step_good c x o : good x -> gop_ready c x o ->
  let '(x', r, _) := step c x o in
  good x' /\ r = snd (spec_step (abs x) o) /\ forall k, abs x' k = fst (spec_step (abs x) o) k.
Proof.
  intros [HI|HF] Hr; unfold gop_ready in Hr.
  - rewrite (Inv_stale x HI) in Hr. pose proof (step_refines c x o HI Hr) as H.
    destruct (step c x o) as [[x' r] t]. destruct H as [HI' H]. exact (conj (or_introl HI') H).
  - pose proof HF as (Hst & _ & HIb). rewrite Hst in Hr.
    assert (Hwr : is_write o -> let '(x', r, _) := step c x o in
              good x' /\ r = snd (spec_step (abs x) o) /\ forall k, abs x' k = fst (spec_step (abs x) o) k).
    { intros Ho. destruct (step_write_faulted c x o HF Ho) as (h & t1 & _ & HIh & Hab & ->).
      pose proof (step_refines c h o HIh (write_ready c h o Ho)) as H. destruct (step c h o) as [[x' r] t]. destruct H as (HI' & Hrr & Hab').
      destruct (spec_step_ext (abs h) (abs x) o Hab) as [E1 E2].
      split; [left; exact HI'|]. split; [rewrite Hrr; exact E1|]. intros k. rewrite Hab'. apply E2. }
    destruct o as [k v|k|k|ord| |t]; [exact (Hwr I)| |exact (Hwr I)| | |]; clear Hwr; cbn [step spec_step fst snd].
    + rewrite (get_abs (base_of x) k HIb : get x k = _). split; [right; exact HF|]. split; reflexivity.
    + destruct Hr as [E Hmr]. rewrite (merge_ignores_flag c x ord E).
      destruct (merge_ok c (base_of x) ord HIb Hmr) as (x' & t & -> & HI' & Hab' & _).
      split; [left; exact HI'|]. split; [reflexivity|exact Hab'].
    + destruct (reopen_ok (base_of x) HIb) as (x' & t & Hro & HI' & Hlog & _).
      rewrite (Hro : reopen x = _). split; [left; exact HI'|]. split; [reflexivity|exact (abs_log x x' Hlog)].
    + split; [right; exact HF|]. split; reflexivity.
Qed.

Fixpoint grun_ready (c : cfg) (x : st) (ops : list op) : Prop :=
  match ops with
  | [] => True
  | o :: ops' => gop_ready c x o /\ grun_ready c (fst (fst (step c x o))) ops'
  end.

Theorem run_good c : forall ops x m, good x -> (forall k, abs x k = m k) -> grun_ready c x ops ->
  let '(x', rs, _) := run c x ops in
  good x' /\ rs = spec_run m ops /\ forall k, abs x' k = spec_final m ops k.
Proof.
  induction ops as [|o ops IH]; intros x m Hg E Hr; cbn [run spec_run spec_final grun_ready] in *; [auto|].
  destruct Hr as [Hr1 Hr2]. pose proof (step_good c x o Hg Hr1) as H1. destruct (step c x o) as [[x1 r] t]. cbn [fst] in Hr2.
  destruct H1 as (Hg1 & -> & Hab1). destruct (spec_step_ext (abs x) m o E) as [E1 E2].
  specialize (IH x1 (fst (spec_step m o)) Hg1 (fun k => eq_trans (Hab1 k) (E2 k)) Hr2). destruct (run c x1 ops) as [[x2 rs] ts].
  destruct IH as (Hg2 & -> & Hab2). split; [exact Hg2|]. split; [rewrite E1; reflexivity|exact Hab2].
Qed.

(* The record a failed append left in the write buffer (Engine.v: [step_r], [reopen_retained]).
   While the process runs, the buffered record is invisible; the next put, delete or merge discards it; a clean
   close writes it out, so after a restart that follows the failure without any write in between, the failed
   operation HAS taken effect.  Specification: the map with one pending operation. *)
Definition op_of_entry (e : entry) : op :=
  match e_val e with Some v => OSet (e_key e) v | None => ODel (e_key e) end.

Definition specr_step (m : mapst) (p : option op) (o : op) : mapst * option op * out :=
  match o, p with
  | OReopen, Some fo => (fst (spec_step m fo), None, VUnit)
  | OGet _, _ | OClock _, _ => (fst (spec_step m o), p, snd (spec_step m o))
  | _, _ => (fst (spec_step m o), None, snd (spec_step m o))
  end.

Fixpoint specr_run (m : mapst) (p : option op) (ops : list op) : list out * mapst * option op :=
  match ops with
  | [] => ([], m, p)
  | o :: ops' => let '(m1, p1, r) := specr_step m p o in
                 let '(rs, m2, p2) := specr_run m1 p1 ops' in (r :: rs, m2, p2)
  end.

Lemma specr_step_ext m1 m2 p o : (forall k, m1 k = m2 k) ->
  let '(ma, pa, ra) := specr_step m1 p o in
  let '(mb, pb, rb) := specr_step m2 p o in
  (forall k, ma k = mb k) /\ pa = pb /\ ra = rb.
Proof.
  intros E. destruct (spec_step_ext m1 m2 o E) as [E1 E2]. unfold specr_step.
  destruct o, p as [fo|]; try rewrite E1; auto. split; [exact (proj2 (spec_step_ext m1 m2 fo E))|auto].
Qed.

Lemma reopen_retained_ok x e : faulted x ->
  exists s' t, reopen_retained x e = ROk (s', tt, t) /\ Inv s' /\ forall k, abs s' k = fst (spec_step (fabs x) (op_of_entry e)) k.
Proof.
  intros (_ & _ & HIb). destruct (open_appended (base_of x) e (s_clock x) HIb) as (d2 & pos & s' & t & Ha & Ho & HI' & Hab).
  unfold reopen_retained. cbn [base_of s_dir s_active] in Ha. rewrite Ha, Ho. eexists _, _. split; [reflexivity|]. split; [exact HI'|].
  intros k. rewrite Hab. unfold op_of_entry. destruct (e_val e); reflexivity.
Qed.

Definition rgood (x : st) (r : option entry) : Prop := good x /\ (r <> None -> faulted x).
Definition pending (r : option entry) : option op := option_map op_of_entry r.

Theorem step_r_good c x r o : rgood x r -> gop_ready c x o ->
  let '(x', r', out, _) := step_r c x r o in
  let '(m', p', sout) := specr_step (abs x) (pending r) o in
  rgood x' r' /\ out = sout /\ pending r' = p' /\ forall k, abs x' k = m' k.
Proof.
  intros [Hg Hf] Hr. pose proof (step_good c x o Hg Hr) as Hp.
  destruct o as [k v|k|k|ord| |t]; unfold step_r, specr_step.
  1,3,4: destruct (step c x _) as [[x' o'] tr]; destruct Hp as (Hg' & Ho & Hm); split; [split; [exact Hg'|intros H; congruence]|auto].
  - cbn [step] in *. destruct (get x k); destruct Hp as (_ & Ho & Hm); (split; [split; [exact Hg|exact Hf]|auto]).
  - destruct r as [e|].
    + assert (HF : faulted x) by (apply Hf; discriminate).
      destruct (reopen_retained_ok x e HF) as (s' & t & -> & HI' & Hab). cbn [pending option_map].
      split; [split; [left; exact HI'|intros H; congruence]|]. split; [reflexivity|]. split; [reflexivity|exact Hab].
    + destruct (step c x OReopen) as [[x' o'] tr]. destruct Hp as (Hg' & Ho & Hm).
      split; [split; [exact Hg'|intros H; congruence]|auto].
  - cbn [step] in *. destruct Hp as (Hg' & Ho & Hm). split; [split; [exact Hg'|exact Hf]|auto].
Qed.

Fixpoint grun_ready_r (c : cfg) (x : st) (r : option entry) (ops : list op) : Prop :=
  match ops with
  | [] => True
  | o :: ops' => gop_ready c x o /\ let '(x1, r1, _, _) := step_r c x r o in grun_ready_r c x1 r1 ops'
  end.

Theorem run_r_good c : forall ops x r m, rgood x r -> (forall k, abs x k = m k) -> grun_ready_r c x r ops ->
  let '(x', r', outs, _) := run_r c x r ops in
  let '(souts, m', p') := specr_run m (pending r) ops in
  rgood x' r' /\ outs = souts /\ pending r' = p' /\ forall k, abs x' k = m' k.
Proof.
  induction ops as [|o ops IH]; intros x r m Hg E Hr; cbn [run_r specr_run grun_ready_r] in *; [auto|].
  destruct Hr as [Hr1 Hr2]. pose proof (step_r_good c x r o Hg Hr1) as H1. pose proof (specr_step_ext (abs x) m (pending r) o E) as H2.
  destruct (step_r c x r o) as [[[x1 r1] o1] t1]. destruct (specr_step (abs x) (pending r) o) as [[m1 p1] so1].
  destruct (specr_step m (pending r) o) as [[m2 p2] so2]. destruct H1 as (Hg1 & -> & Hp & Hm). destruct H2 as (E2 & -> & ->).
  specialize (IH x1 r1 m2 Hg1 (fun k => eq_trans (Hm k) (E2 k)) Hr2). rewrite Hp in IH.
  destruct (run_r c x1 r1 ops) as [[[x2 r2] os] ts]. destruct (specr_run m2 p2 ops) as [[so3 m3] p3].
  destruct IH as (Hg2 & -> & Hp2 & Hm2). auto.
Qed.
