(* Store/Trace.v — a monitor for the file discipline of C14 over traces of mutating system calls,
   and what acceptance by the monitor guarantees.  The monitor is run (inside Coq) on the traces the
   REAL store produces under the LD_PRELOAD recorder and on the model's own traces. *)
From BC Require Import Store.Engine.
Open Scope N_scope.

Definition fid (f : fname) : N := match f with FData i | FHint i => i end.
Definition fname_eqb (a b : fname) : bool :=
  match a, b with
  | FData i, FData j | FHint i, FHint j => i =? j
  | _, _ => false
  end.

Record mon := mkMon {
  mn_files : list (fname * N);   (* existing files with their sizes *)
  mn_max : option N;             (* largest id ever present or created *)
  mn_cur : option N              (* data id created last by this process: the only append target *)
}.

Fixpoint fsize_of (l : list (fname * N)) (f : fname) : option N :=
  match l with [] => None | (g, z) :: l' => if fname_eqb g f then Some z else fsize_of l' f end.
Fixpoint fset (l : list (fname * N)) (f : fname) (z : N) : list (fname * N) :=
  match l with [] => [(f, z)] | (g, y) :: l' => if fname_eqb g f then (g, z) :: l' else (g, y) :: fset l' f z end.
Fixpoint fdel (l : list (fname * N)) (f : fname) : list (fname * N) :=
  match l with [] => [] | (g, y) :: l' => if fname_eqb g f then l' else (g, y) :: fdel l' f end.

Definition gt_max (o : option N) (i : N) : bool := match o with Some m => m <? i | None => true end.
Definition is_cur (o : option N) (i : N) : bool := match o with Some c => c =? i | None => false end.

Definition disc_step (maxsize : N) (m : mon) (c : syscall) : option mon :=
  match c with
  | SCreate (FData i) =>
    match fsize_of (mn_files m) (FData i) with
    | Some _ => None
    | None => if gt_max (mn_max m) i then Some (mkMon (fset (mn_files m) (FData i) 0) (Some i) (Some i)) else None
    end
  | SCreate (FHint i) =>
    match fsize_of (mn_files m) (FHint i) with
    | Some _ => None
    | None => if is_cur (mn_cur m) i then Some (mkMon (fset (mn_files m) (FHint i) 0) (mn_max m) (mn_cur m)) else None
    end
  | SWrite f b =>
    match fsize_of (mn_files m) f with
    | None => None
    | Some z =>
      if is_cur (mn_cur m) (fid f) && (match f with FData _ => z <=? maxsize | FHint _ => true end)
      then Some (mkMon (fset (mn_files m) f (z + blen b)) (mn_max m) (mn_cur m)) else None
    end
  | SFsync f => match fsize_of (mn_files m) f with Some _ => Some m | None => None end
  | SUnlink f => match fsize_of (mn_files m) f with Some _ => Some (mkMon (fdel (mn_files m) f) (mn_max m) (mn_cur m)) | None => None end
  end.

Fixpoint disc_run (maxsize : N) (m : mon) (tr : list syscall) : option mon :=
  match tr with
  | [] => Some m
  | c :: tr' => match disc_step maxsize m c with Some m' => disc_run maxsize m' tr' | None => None end
  end.
Definition disc_ok (maxsize : N) (m : mon) (tr : list syscall) : bool :=
  match disc_run maxsize m tr with Some _ => true | None => false end.

(* a process starts with the files it finds, their ids, and no append target *)
Definition mon_init (files : list (fname * N)) : mon :=
  mkMon files (fold_left (fun o '(f, _) => match o with Some m => Some (N.max m (fid f)) | None => Some (fid f) end) files None) None.

Lemma disc_run_app maxsize tr1 : forall m tr2,
  disc_run maxsize m (tr1 ++ tr2) = match disc_run maxsize m tr1 with Some m' => disc_run maxsize m' tr2 | None => None end.
Proof. induction tr1 as [|c tr1 IH]; intros m tr2; cbn [app disc_run]; [reflexivity|]. destruct (disc_step maxsize m c); [apply IH|reflexivity]. Qed.

Lemma disc_run_mid maxsize m0 pre c post m' : disc_run maxsize m0 (pre ++ c :: post) = Some m' ->
  exists m1 m2, disc_run maxsize m0 pre = Some m1 /\ disc_step maxsize m1 c = Some m2 /\ disc_run maxsize m2 post = Some m'.
Proof.
  rewrite disc_run_app. destruct (disc_run maxsize m0 pre) as [m1|]; [|discriminate]. cbn [disc_run].
  destruct (disc_step maxsize m1 c) as [m2|] eqn:E; [|discriminate]. eauto.
Qed.

Definition max_le (o : option N) (o' : option N) : Prop :=
  match o, o' with Some a, Some b => a <= b | None, _ => True | Some _, None => False end.

Lemma max_le_refl a : max_le a a.
Proof. destruct a; cbn; [lia|exact I]. Qed.

Lemma max_le_trans a b c : max_le a b -> max_le b c -> max_le a c.
Proof. destruct a, b, c; cbn; try tauto; lia. Qed.

(* only the creation of a data file moves the largest id and the append target: to the new id,
   which is above the old largest and names no file *)
Lemma disc_step_frame maxsize m c m' : disc_step maxsize m c = Some m' ->
  match c with
  | SCreate (FData i) => fsize_of (mn_files m) (FData i) = None /\ gt_max (mn_max m) i = true /\
                         mn_max m' = Some i /\ mn_cur m' = Some i
  | _ => mn_max m' = mn_max m /\ mn_cur m' = mn_cur m
  end.
Proof.
  unfold disc_step. destruct c as [[i|i]|f b|f|f].
  - destruct (fsize_of _ _); [discriminate|]. destruct (gt_max _ _); [|discriminate]. intros H; inversion H. auto.
  - destruct (fsize_of _ _); [discriminate|]. destruct (is_cur _ _); [|discriminate]. intros H; inversion H. auto.
  - destruct (fsize_of _ _); [|discriminate]. destruct (_ && _); [|discriminate]. intros H; inversion H. auto.
  - destruct (fsize_of _ _); [|discriminate]. intros H; inversion H. auto.
  - destruct (fsize_of _ _); [|discriminate]. intros H; inversion H. auto.
Qed.

Lemma disc_step_max maxsize m c m' : disc_step maxsize m c = Some m' -> max_le (mn_max m) (mn_max m').
Proof.
  intros H. apply disc_step_frame in H.
  destruct c as [[i|i]|f b|f|f]; try (destruct H as [-> _]; apply max_le_refl).
  destruct H as (_ & Hg & -> & _). unfold gt_max in Hg. destruct (mn_max m); [apply N.ltb_lt in Hg; cbn; lia|exact I].
Qed.

Lemma disc_run_max maxsize tr : forall m m', disc_run maxsize m tr = Some m' -> max_le (mn_max m) (mn_max m').
Proof.
  induction tr as [|c tr IH]; intros m m' H; cbn [disc_run] in H.
  - inversion H; subst. apply max_le_refl.
  - destruct (disc_step maxsize m c) as [m1|] eqn:E; [|discriminate].
    eapply max_le_trans; [eapply disc_step_max; exact E|eapply IH; exact H].
Qed.

(* 1. ids only grow: a data file is created with an id above every id that existed when the process
      started or was created before, and under a name that does not exist. *)
Theorem monitor_ids_grow maxsize m0 pre i post m' :
  disc_run maxsize m0 (pre ++ SCreate (FData i) :: post) = Some m' ->
  exists m1, disc_run maxsize m0 pre = Some m1 /\ gt_max (mn_max m1) i = true /\ max_le (mn_max m0) (mn_max m1) /\
             fsize_of (mn_files m1) (FData i) = None.
Proof.
  intros H. destruct (disc_run_mid _ _ _ _ _ _ H) as (m1 & m2 & Hpre & Hst & _).
  apply disc_step_frame in Hst as (Hf & Hg & _). exists m1. split; [exact Hpre|]. split; [exact Hg|]. split; [|exact Hf].
  eapply disc_run_max. exact Hpre.
Qed.

(* 2. append-only by the creating process: every write goes to the data file created last by this
      process, or to its hint file — never to a file found at start-up, never to a file after a
      newer data file was created. *)
Theorem monitor_write_target maxsize m0 pre f b post m' :
  disc_run maxsize m0 (pre ++ SWrite f b :: post) = Some m' ->
  exists m1, disc_run maxsize m0 pre = Some m1 /\ mn_cur m1 = Some (fid f) /\
             exists z, fsize_of (mn_files m1) f = Some z /\ (match f with FData _ => z <= maxsize | FHint _ => True end).
Proof.
  intros H. destruct (disc_run_mid _ _ _ _ _ _ H) as (m1 & m2 & Hpre & Hst & _).
  cbn [disc_step] in Hst. destruct (fsize_of (mn_files m1) f) as [z|] eqn:Hf; [|discriminate].
  destruct (is_cur (mn_cur m1) (fid f)) eqn:Hc; [|discriminate].
  destruct (match f with FData _ => z <=? maxsize | FHint _ => true end) eqn:Hz; [|discriminate].
  exists m1. split; [exact Hpre|]. split.
  - unfold is_cur in Hc. destruct (mn_cur m1); [apply N.eqb_eq in Hc; subst; reflexivity|discriminate].
  - exists z. split; [exact Hf|]. destruct f; [apply N.leb_le; exact Hz|exact I].
Qed.

Lemma disc_step_cur maxsize m c m' : disc_step maxsize m c = Some m' ->
  match c with SCreate (FData i) => mn_cur m' = Some i | _ => mn_cur m' = mn_cur m end.
Proof. intros H. apply disc_step_frame in H. destruct c as [[i|i]|f b|f|f]; apply H. Qed.

(* 3. a process that has created nothing yet writes nothing *)
Theorem monitor_no_write_before_create maxsize files f b post m' :
  disc_run maxsize (mon_init files) (SWrite f b :: post) = Some m' -> False.
Proof.
  cbn [disc_run disc_step mon_init mn_cur mn_files]. destruct (fsize_of files f); [|discriminate]. cbn [is_cur andb]. discriminate.
Qed.
