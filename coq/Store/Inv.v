(* Store/Inv.v — first, directories as lists of files sorted by id and the log they hold ([sorted],
   [dir_get], [dir_set], [log_of_dir], appending to the last file); then the engine invariant [Inv]
   and the abstraction to a key-value map ([abs]: what the log says is the latest value); then what a
   get, a rollover and one append do under the invariant ([get_abs], [new_active_ok], [write_ok]). *)
From BC Require Import Store.Engine Store.Log Store.Step Store.Cons.
Open Scope N_scope.

Definition ids_gt (m : N) (d : dir) : Prop := Forall (fun '(j, _) => m < j) d.
Fixpoint sorted (d : dir) : Prop :=
  match d with
  | [] => True
  | (i, _) :: d' => ids_gt i d' /\ sorted d'
  end.
Definition ids_le (d : dir) (m : N) : Prop := Forall (fun '(j, _) => j <= m) d.

Lemma ids_gt_iff m d : ids_gt m d <-> forall j, In j (map fst d) -> m < j.
Proof.
  unfold ids_gt. rewrite Forall_forall. split.
  - intros H j Hin. apply in_map_iff in Hin as ([j' g] & <- & Hin). exact (H _ Hin).
  - intros H [j g] Hin. apply H. exact (in_map fst _ _ Hin).
Qed.
Lemma ids_le_iff d m : ids_le d m <-> forall j, In j (map fst d) -> j <= m.
Proof.
  unfold ids_le. rewrite Forall_forall. split.
  - intros H j Hin. apply in_map_iff in Hin as ([j' g] & <- & Hin). exact (H _ Hin).
  - intros H [j g] Hin. apply H. exact (in_map fst _ _ Hin).
Qed.

Lemma ids_gt_In m d j f : ids_gt m d -> In (j, f) d -> m < j.
Proof. intros H Hin. apply (proj1 (ids_gt_iff m d) H). exact (in_map fst _ _ Hin). Qed.
Lemma ids_le_In d m j f : ids_le d m -> In (j, f) d -> j <= m.
Proof. intros H Hin. apply (proj1 (ids_le_iff d m) H). exact (in_map fst _ _ Hin). Qed.

Lemma ids_le_weaken d m m' : ids_le d m -> m <= m' -> ids_le d m'.
Proof. rewrite !ids_le_iff. intros H Hle j Hin. specialize (H j Hin). lia. Qed.

Lemma ids_le_lt d m id : ids_le d m -> m < id -> forall j g, In (j, g) d -> j < id.
Proof. intros H Hlt j g Hin. apply (ids_le_In _ _ _ _ H) in Hin. lia. Qed.

Lemma sorted_fst d : forall d', map fst d = map fst d' -> sorted d -> sorted d'.
Proof.
  induction d as [|[i g] d IH]; intros [|[i' g'] d'] E; try discriminate; cbn [sorted]; [auto|].
  cbn [map fst] in E. injection E as <- E. rewrite !ids_gt_iff, <- E. intros [Hgt Hs]. split; [exact Hgt|exact (IH d' E Hs)].
Qed.

Lemma dir_get_In d id f : dir_get d id = Some f -> In (id, f) d.
Proof.
  induction d as [|[i g] d IH]; cbn [dir_get]; [discriminate|].
  destruct (N.eqb_spec i id) as [->|]; intros H; [inversion H; left; reflexivity|right; auto].
Qed.

Lemma In_dir_get d id f : sorted d -> In (id, f) d -> dir_get d id = Some f.
Proof.
  induction d as [|[i g] d IH]; cbn [sorted dir_get In]; [tauto|].
  intros [Hgt Hs] [H|H].
  - inversion H; subst. rewrite N.eqb_refl. reflexivity.
  - destruct (N.eqb_spec i id) as [->|]; [|auto]. apply (ids_gt_In _ _ _ _ Hgt) in H. lia.
Qed.

Lemma dir_get_none_gt d m id : ids_gt m d -> id <= m -> dir_get d id = None.
Proof.
  intros Hgt Hle. destruct (dir_get d id) eqn:E; [|reflexivity].
  apply dir_get_In, (ids_gt_In _ _ _ _ Hgt) in E. lia.
Qed.

Lemma ids_le_get_none d m id : ids_le d m -> m < id -> dir_get d id = None.
Proof.
  intros Hle Hlt. destruct (dir_get d id) eqn:E; [|reflexivity].
  apply dir_get_In, (ids_le_lt _ _ _ Hle Hlt) in E. lia.
Qed.

Lemma dir_get_set d id f : forall j, dir_get (dir_set d id f) j = if id =? j then Some f else dir_get d j.
Proof.
  intros j. induction d as [|[i g] d IH]; cbn [dir_set dir_get]; [reflexivity|].
  destruct (N.eqb_spec i id) as [->|Hne]; cbn [dir_get]; [destruct (id =? j); reflexivity|].
  rewrite IH. destruct (N.eqb_spec i j) as [->|]; [|reflexivity]. rewrite (proj2 (N.eqb_neq id j)) by congruence. reflexivity.
Qed.

Lemma dir_set_twice d id f g : dir_set (dir_set d id f) id g = dir_set d id g.
Proof.
  induction d as [|[i h] d IH]; cbn [dir_set]; [rewrite N.eqb_refl; reflexivity|].
  destruct (N.eqb_spec i id) as [->|Hne]; cbn [dir_set]; [rewrite N.eqb_refl; reflexivity|].
  rewrite (proj2 (N.eqb_neq i id) Hne), IH. reflexivity.
Qed.

Lemma dir_set_split d id f : dir_get d id = Some f ->
  exists d1 d2, d = d1 ++ (id, f) :: d2 /\ forall g, dir_set d id g = d1 ++ (id, g) :: d2.
Proof.
  induction d as [|[i x] d IH]; cbn [dir_get dir_set]; [discriminate|]. destruct (N.eqb_spec i id) as [->|Hne]; intros E.
  - injection E as ->. exists [], d. split; reflexivity.
  - destruct (IH E) as (d1 & d2 & -> & Hset). exists ((i, x) :: d1), d2. split; [reflexivity|]. intros g. rewrite Hset. reflexivity.
Qed.

Lemma dir_set_same d a f : dir_get d a = Some f -> dir_set d a f = d.
Proof. intros H. destruct (dir_set_split d a f H) as (d1 & d2 & E & Hset). rewrite Hset. symmetry. exact E. Qed.

Lemma dir_last_split d a fa : sorted d -> ids_le d a -> dir_get d a = Some fa ->
  exists d0, d = d0 ++ [(a, fa)] /\ ~ In a (map fst d0) /\ forall f', dir_set d a f' = d0 ++ [(a, f')].
Proof.
  induction d as [|[i g] d IH]; cbn [sorted dir_get dir_set]; [discriminate|].
  intros [Hgt Hs] Hle Hget. inversion Hle as [|? ? Hi Hle']; subst.
  destruct (N.eqb_spec i a) as [->|Hne].
  - inversion Hget; subst. destruct d as [|[j h] d']; [exists []; split; [reflexivity|split; [intros []|reflexivity]]|].
    inversion Hgt as [|? ? Hj _]; subst. inversion Hle' as [|? ? Hj' _]; subst. lia.
  - destruct (IH Hs Hle' Hget) as (d0 & -> & Hn & Hset). exists ((i, g) :: d0). split; [reflexivity|]. split.
    + intros [E|E]; [exact (Hne E)|exact (Hn E)].
    + intros f'. rewrite Hset. reflexivity.
Qed.

Lemma log_of_dir_app d1 d2 : log_of_dir (d1 ++ d2) = log_of_dir d1 ++ log_of_dir d2.
Proof. induction d1 as [|[i f] d1 IH]; cbn [app log_of_dir]; [reflexivity|]. rewrite IH, app_assoc. reflexivity. Qed.

Lemma log_of_dir_app_empty d id : log_of_dir (d ++ [(id, empty_file)]) = log_of_dir d.
Proof. rewrite log_of_dir_app. cbn. apply app_nil_r. Qed.

Lemma dir_set_new d id f : dir_get d id = None -> dir_set d id f = d ++ [(id, f)].
Proof.
  induction d as [|[i g] d IH]; cbn [dir_get dir_set app]; [reflexivity|].
  destruct (i =? id); [discriminate|]. intros H. rewrite IH by exact H. reflexivity.
Qed.

Lemma sorted_snoc d id f : sorted d -> (forall j g, In (j, g) d -> j < id) -> sorted (d ++ [(id, f)]).
Proof.
  induction d as [|[i g] d IH]; cbn [app sorted]; intros Hs Hlt.
  - split; [constructor|exact I].
  - destruct Hs as [Hgt Hs]. split.
    + apply Forall_app. split; [exact Hgt|]. constructor; [apply (Hlt i g); left; reflexivity|constructor].
    + apply IH; [exact Hs|]. intros j h Hin. apply (Hlt j h). right. exact Hin.
Qed.

Lemma log_file_bounds fid : forall es pos f p e, In (f, p, e) (log_file fid es pos) ->
  f = fid /\ pos <= p /\ p + entry_size e <= pos + data_size es.
Proof.
  induction es as [|e0 es IH]; intros pos f p e; cbn [log_file data_size In]; [tauto|].
  intros [H|H].
  - inversion H; subst. pose proof (entry_size_pos e). lia.
  - apply IH in H. pose proof (entry_size_pos e0). lia.
Qed.

Lemma existsb_at_pos_false L f p : (forall f' p' e', In (f', p', e') L -> f' <> f \/ p' <> p) -> existsb (at_pos f p) L = false.
Proof.
  induction L as [|[[f' p'] e'] L IH]; intros H; [reflexivity|].
  cbn [existsb at_pos]. rewrite IH by (intros f0 p0 e0 Hin0; apply (H f0 p0 e0); right; exact Hin0).
  destruct (H f' p' e' (or_introl eq_refl)) as [Hn|Hn]; apply N.eqb_neq in Hn; rewrite Hn; [reflexivity|rewrite andb_false_r; reflexivity].
Qed.

Lemma wfL_log_file fid : forall es pos, wfL (log_file fid es pos).
Proof.
  induction es as [|e es IH]; intros pos; cbn [log_file wfL]; [exact I|].
  split; [|apply IH]. apply existsb_at_pos_false. intros f' p' e' Hin. apply log_file_bounds in Hin.
  pose proof (entry_size_pos e). right. lia.
Qed.

Lemma wfL_app L1 L2 : wfL L1 -> wfL L2 ->
  (forall f p e f' p' e', In (f, p, e) L1 -> In (f', p', e') L2 -> f <> f' \/ p <> p') -> wfL (L1 ++ L2).
Proof.
  induction L1 as [|[[f p] e] L1 IH]; cbn [app wfL]; intros H1 H2 Hd; [exact H2|].
  destruct H1 as [Hx H1]. split.
  - rewrite existsb_app, Hx. cbn [orb]. apply existsb_at_pos_false. intros f' p' e' Hin.
    destruct (Hd f p e f' p' e' (or_introl eq_refl) Hin) as [H|H]; [left|right]; congruence.
  - apply IH; auto. intros. eapply Hd; [right|]; eassumption.
Qed.

Lemma log_of_dir_ids d : forall f p e, In (f, p, e) (log_of_dir d) -> In f (map fst d).
Proof.
  induction d as [|[i g] d IH]; cbn [log_of_dir map fst In]; [tauto|].
  intros f p e H. apply in_app_or in H as [H|H]; [left; apply log_file_bounds in H; symmetry; tauto|right; eauto].
Qed.

Lemma wfL_log_of_dir d : sorted d -> wfL (log_of_dir d).
Proof.
  induction d as [|[i g] d IH]; cbn [sorted log_of_dir]; [intros; exact I|].
  intros [Hgt Hs]. apply wfL_app; [apply wfL_log_file|auto|].
  intros f p e f' p' e' H1 H2. apply log_file_bounds in H1. apply log_of_dir_ids in H2.
  left. destruct H1 as [-> _]. intros ->. apply (proj1 (ids_gt_iff _ _) Hgt) in H2. lia.
Qed.

Lemma log_file_entry_at fid : forall es pos p e, In (fid, p, e) (log_file fid es pos) ->
  entry_at es (p - pos) = Some e.
Proof.
  induction es as [|e0 es IH]; intros pos p e; cbn [log_file In]; [tauto|].
  intros [H|H].
  - inversion H; subst. cbn [entry_at]. rewrite N.sub_diag. reflexivity.
  - pose proof (log_file_bounds fid es _ _ _ _ H) as (_ & Hlo & _). pose proof (entry_size_pos e0).
    cbn [entry_at]. replace (p - pos =? 0) with false by (symmetry; apply N.eqb_neq; lia).
    replace (p - pos <? entry_size e0) with false by (symmetry; apply N.ltb_ge; lia).
    replace (p - pos - entry_size e0) with (p - (pos + entry_size e0)) by lia. apply IH. exact H.
Qed.

Lemma log_of_dir_In d : sorted d -> forall f p e, In (f, p, e) (log_of_dir d) ->
  exists g, dir_get d f = Some g /\ In (f, p, e) (log_file f (d_data g) 0).
Proof.
  induction d as [|[i g] d IH]; cbn [sorted log_of_dir]; [intros _ f p e []|].
  intros [Hgt Hs] f p e H. apply in_app_or in H as [H|H].
  - pose proof (log_file_bounds _ _ _ _ _ _ H) as (-> & _). exists g. cbn [dir_get]. rewrite N.eqb_refl. auto.
  - destruct (IH Hs f p e H) as (h & Hget & Hin). exists h. split; [|exact Hin].
    cbn [dir_get]. destruct (N.eqb_spec i f) as [->|]; [|exact Hget].
    apply dir_get_In, (ids_gt_In _ _ _ _ Hgt) in Hget. lia.
Qed.

Lemma read_loc_log d f p e : sorted d -> In (f, p, e) (log_of_dir d) -> read_loc d (loc_of (f, p, e)) = ROk e.
Proof.
  intros Hs Hin. destruct (log_of_dir_In d Hs f p e Hin) as (g & Hget & Hin').
  unfold read_loc. cbn [loc_of l_fid l_pos l_len]. rewrite Hget.
  pose proof (log_file_bounds _ _ _ _ _ _ Hin') as (_ & _ & Hhi).
  replace (data_size (d_data g) <? p + entry_size e) with false by (symmetry; apply N.ltb_ge; lia).
  pose proof (log_file_entry_at f (d_data g) 0 p e Hin') as He. rewrite N.sub_0_r in He. rewrite He, N.eqb_refl. reflexivity.
Qed.

Definition dir_ok (d : dir) (m : N) : Prop :=
  sorted d /\ ids_le d m /\ forall id f, In (id, f) d -> hints_ok f.

Lemma dir_snoc_fresh d id f :
  sorted d -> (forall j g, In (j, g) d -> j < id) -> (forall j g, In (j, g) d -> hints_ok g) -> hints_ok f ->
  dir_get d id = None /\ dir_set d id f = d ++ [(id, f)] /\ dir_ok (d ++ [(id, f)]) id /\
  dir_get (d ++ [(id, f)]) id = Some f.
Proof.
  intros Hs Hlt Hh Hf.
  assert (Hnone : dir_get d id = None).
  { destruct (dir_get d id) eqn:E; [|reflexivity]. apply dir_get_In, Hlt in E. lia. }
  assert (Hs' : sorted (d ++ [(id, f)])) by (apply sorted_snoc; assumption).
  split; [exact Hnone|]. split; [apply dir_set_new; exact Hnone|]. split; [|apply In_dir_get; [exact Hs'|apply in_elt]].
  split; [exact Hs'|]. split.
  - apply ids_le_iff. intros j Hin. rewrite map_app in Hin. apply in_app_or in Hin as [Hin|[<-|[]]]; [|cbn; lia].
    apply in_map_iff in Hin as ([j' g] & <- & Hin). apply Hlt in Hin. cbn. lia.
  - intros j g Hin. apply in_app_or in Hin as [Hin|[Hin|[]]]; [eauto|]. injection Hin as _ <-. exact Hf.
Qed.

Lemma append_last d a fa e h' : sorted d -> ids_le d a -> dir_get d a = Some fa ->
  let fa' := mkFile (d_data fa ++ [e]) h' in
  let d' := dir_set d a fa' in
  log_of_dir d' = log_of_dir d ++ [(a, data_size (d_data fa), e)] /\ sorted d' /\ ids_le d' a /\
  dir_get d' a = Some fa' /\
  (forall id f, In (id, f) d' -> (In (id, f) d /\ id <> a) \/ (id = a /\ f = fa')).
Proof.
  intros Hs Hle Hfa fa' d'.
  destruct (dir_last_split _ _ _ Hs Hle Hfa) as (d0 & Ed & Hnotin & Hset).
  assert (Ed2 : d' = d0 ++ [(a, fa')]) by apply Hset.
  assert (Efst : map fst d = map fst d') by (rewrite Ed, Ed2, !map_app; reflexivity).
  split; [|split; [|split; [|split]]].
  - rewrite Ed2, Ed, !log_of_dir_app. cbn [log_of_dir]. rewrite !app_nil_r. subst fa'. cbn [d_data].
    rewrite log_file_app. cbn [log_file]. rewrite N.add_0_l, app_assoc. reflexivity.
  - exact (sorted_fst d d' Efst Hs).
  - rewrite ids_le_iff, <- Efst, <- ids_le_iff. exact Hle.
  - subst d'. rewrite dir_get_set, N.eqb_refl. reflexivity.
  - rewrite Ed2. intros id f Hin. apply in_app_or in Hin as [Hin|[Hin|[]]].
    + left. split; [rewrite Ed; apply in_or_app; left; exact Hin|].
      intros ->. apply Hnotin. exact (in_map fst _ _ Hin).
    + inversion Hin; subst. right. auto.
Qed.

Definition Inv (s : st) : Prop :=
  sorted (s_dir s) /\ ids_le (s_dir s) (s_last s) /\
  (forall id f, In (id, f) (s_dir s) -> hints_ok f) /\
  s_stale s = false /\ s_active s = s_last s /\
  (exists fa, dir_get (s_dir s) (s_active s) = Some fa /\ d_hint fa = None) /\
  cons (log_of_dir (s_dir s)) (s_idx s) (s_stats s).

Definition slog (s : st) : list lentry := log_of_dir (s_dir s).
Definition abs (s : st) (k : bytes) : option bytes := lastval (slog s) k None.

Lemma abs_snoc s s' f p e : slog s' = slog s ++ [(f, p, e)] ->
  forall k, abs s' k = if beq k (e_key e) then e_val e else abs s k.
Proof. intros H k. unfold abs. rewrite H, lastval_app. reflexivity. Qed.

Lemma abs_log s s' : slog s' = slog s -> forall k, abs s' k = abs s k.
Proof. intros H k. unfold abs. rewrite H. reflexivity. Qed.

(* what the invariant says beside the consistency of index and counters *)
Definition shape_ok (s : st) : Prop :=
  dir_ok (s_dir s) (s_last s) /\ s_stale s = false /\ s_active s = s_last s /\
  exists fa, dir_get (s_dir s) (s_active s) = Some fa /\ d_hint fa = None.

Lemma Inv_iff s : Inv s <-> shape_ok s /\ cons (slog s) (s_idx s) (s_stats s).
Proof.
  unfold Inv, shape_ok, dir_ok, slog. split.
  - intros (H1 & H2 & H3 & H4 & H5 & H6 & H7). auto 10.
  - intros (((H1 & H2 & H3) & H4 & H5 & H6) & H7). auto 10.
Qed.

Lemma Inv_dir_ok s : Inv s -> dir_ok (s_dir s) (s_last s).
Proof. intros H. apply Inv_iff in H. apply H. Qed.
Lemma Inv_sorted s : Inv s -> sorted (s_dir s).
Proof. intros H. apply H. Qed.
Lemma Inv_hints s : Inv s -> forall id f, In (id, f) (s_dir s) -> hints_ok f.
Proof. intros H. apply H. Qed.
Lemma Inv_stale s : Inv s -> s_stale s = false.
Proof. intros H. apply H. Qed.
Lemma Inv_last s : Inv s -> s_active s = s_last s.
Proof. intros H. apply H. Qed.
Lemma Inv_active s : Inv s -> exists fa, dir_get (s_dir s) (s_active s) = Some fa /\ d_hint fa = None.
Proof. intros H. apply H. Qed.
Lemma Inv_cons s : Inv s -> cons (slog s) (s_idx s) (s_stats s).
Proof. intros H. apply H. Qed.

Lemma Inv_ext s w clk : Inv s -> Inv (mkSt (s_dir s) (s_idx s) (s_stats s) (s_active s) w (s_last s) (s_stale s) clk).
Proof. intros H. exact H. Qed.

Lemma get_sub s L k : sorted (s_dir s) -> (forall k, iget (s_idx s) k = lastloc L k None) -> incl L (slog s) ->
  get s k = ROk (lastval L k None).
Proof.
  intros Hs C1 Hincl. unfold get. rewrite C1. destruct (lastloc L k None) as [l|] eqn:El.
  - destruct (lastloc_In _ _ _ El) as (f & p & e & Hin & -> & _ & _ & ->).
    rewrite (read_loc_log _ f p e Hs (Hincl _ Hin)). reflexivity.
  - apply lastloc_none_iff in El. rewrite El. reflexivity.
Qed.

Theorem get_abs s k : Inv s -> get s k = ROk (abs s k).
Proof. intros HI. apply get_sub; [apply Inv_sorted; exact HI|apply (Inv_cons s HI)|apply incl_refl]. Qed.

Lemma new_active_inv s s' t : new_active s = ROk (s', t) ->
  dir_get (s_dir s) (s_last s + 1) = None /\
  s' = mkSt (s_dir s ++ [(s_last s + 1, empty_file)]) (s_idx s) (s_stats s) (s_last s + 1) 0 (s_last s + 1) false (s_clock s) /\
  t = [SCreate (FData (s_last s + 1))].
Proof.
  unfold new_active. destruct (dir_get (s_dir s) (s_last s + 1)) eqn:E; [discriminate|].
  rewrite (dir_set_new _ _ _ E). intros H. inversion H. auto.
Qed.

Lemma fresh_active_shape d a i x w clk :
  sorted d -> (forall j g, In (j, g) d -> j < a) -> (forall j g, In (j, g) d -> hints_ok g) ->
  dir_get d a = None /\ dir_set d a empty_file = d ++ [(a, empty_file)] /\
  shape_ok (mkSt (d ++ [(a, empty_file)]) i x a w a false clk).
Proof.
  intros Hs Hlt Hh. destruct (dir_snoc_fresh d a empty_file Hs Hlt Hh I) as (Hnone & Hset & Hok & Hget).
  split; [exact Hnone|]. split; [exact Hset|]. split; [exact Hok|]. split; [reflexivity|]. split; [reflexivity|].
  exists empty_file. split; [exact Hget|reflexivity].
Qed.

Lemma new_active_shape s : dir_ok (s_dir s) (s_last s) ->
  exists s', new_active s = ROk (s', [SCreate (FData (s_last s + 1))]) /\ shape_ok s' /\ slog s' = slog s /\
             s_idx s' = s_idx s /\ s_stats s' = s_stats s /\ s_clock s' = s_clock s.
Proof.
  intros (Hs & Hle & Hh). assert (Hlt : s_last s < s_last s + 1) by lia.
  destruct (fresh_active_shape (s_dir s) (s_last s + 1) (s_idx s) (s_stats s) 0 (s_clock s) Hs (ids_le_lt _ _ _ Hle Hlt) Hh)
    as (Hnone & Hset & Hsh).
  unfold new_active. rewrite Hnone, Hset. eexists. split; [reflexivity|]. split; [exact Hsh|].
  split; [apply log_of_dir_app_empty|]. repeat split.
Qed.

Lemma new_active_ok s : dir_ok (s_dir s) (s_last s) -> cons (slog s) (s_idx s) (s_stats s) ->
  exists s', new_active s = ROk (s', [SCreate (FData (s_last s + 1))]) /\ Inv s' /\ slog s' = slog s /\
             s_idx s' = s_idx s /\ s_stats s' = s_stats s /\ s_clock s' = s_clock s.
Proof.
  intros Hok HC. destruct (new_active_shape s Hok) as (s' & Hn & Hsh & Hlog & Hi & Hx & Hrest).
  exists s'. split; [exact Hn|]. split; [|auto]. apply Inv_iff. split; [exact Hsh|]. rewrite Hlog, Hi, Hx. exact HC.
Qed.

Lemma write_stale c x k v : s_stale x = true ->
  write c x k v = match new_active x with
                  | ROk (h, t1) => match write c h k v with
                                   | ROk (s2, l, t2) => ROk (s2, l, t1 ++ t2)
                                   | RFail e => RFail e | RPanicked e => RPanicked e
                                   end
                  | RFail e => RFail e | RPanicked e => RPanicked e
                  end.
Proof.
  intros Hst. unfold write at 1. rewrite Hst. destruct (new_active x) as [[h t1]| |] eqn:Hn; [|reflexivity..].
  assert (Hh : s_stale h = false) by (destruct (new_active_inv x h t1 Hn) as (_ & -> & _); reflexivity).
  unfold write. rewrite Hh. destruct (append_data (s_dir h) (s_active h) (mkEntry (s_clock h) k v)) as [[d2 pos]|]; [|reflexivity].
  cbn [app]. destruct (c_max c <? s_written h + entry_size (mkEntry (s_clock h) k v)); [|reflexivity].
  match goal with |- context [new_active ?z] => destruct (new_active z) as [[s3 t3]| |] end; reflexivity.
Qed.

Lemma write_loc c s k v s' l t : s_stale s = false -> write c s k v = ROk (s', l, t) -> l_fid l = s_active s.
Proof.
  intros Hst. unfold write. rewrite Hst.
  destruct (append_data (s_dir s) (s_active s) (mkEntry (s_clock s) k v)) as [[d2 pos]|]; [|discriminate].
  destruct (c_max c <? _); [match goal with |- context [new_active ?z] => destruct (new_active z) as [[s3 t3]| |] end; try discriminate|];
    intros H; injection H as _ <- _; reflexivity.
Qed.

Lemma Forall_app_inv {A} (P : A -> Prop) l1 l2 : Forall P (l1 ++ l2) -> Forall P l1 /\ Forall P l2.
Proof. apply Forall_app. Qed.

Lemma inv_append s e : Inv s ->
  exists d2 pos, append_data (s_dir s) (s_active s) e = Some (d2, pos) /\
    log_of_dir d2 = slog s ++ [(s_active s, pos, e)] /\ dir_ok d2 (s_last s) /\
    exists fa', dir_get d2 (s_active s) = Some fa' /\ d_hint fa' = None.
Proof.
  intros HI. pose proof (Inv_dir_ok s HI) as (Hs & Hle & Hh). destruct (Inv_active s HI) as (fa & Hfa & Hhint).
  unfold append_data. rewrite Hfa. rewrite <- (Inv_last s HI) in Hle |- *.
  destruct (append_last (s_dir s) (s_active s) fa e (d_hint fa) Hs Hle Hfa) as (Hlog & Hs' & Hle' & Hget & Hin).
  eexists _, _. split; [reflexivity|]. split; [exact Hlog|]. split; [|eexists; split; [exact Hget|exact Hhint]].
  split; [exact Hs'|]. split; [exact Hle'|].
  intros id f Hf. destruct (Hin id f Hf) as [[Hf' _]|[_ ->]]; [exact (Hh id f Hf')|apply hints_ok_nohint; exact Hhint].
Qed.

Lemma write_ok c s k v : Inv s ->
  exists s' l t, write c s k v = ROk (s', l, t) /\
    let en := (s_active s, l_pos l, mkEntry (s_clock s) k v) in
    l = loc_of en /\
    slog s' = slog s ++ [en] /\ wfL (slog s ++ [en]) /\
    s_idx s' = s_idx s /\
    s_stats s' = aset (s_stats s) (s_active s)
                      (if is_value en then add_live (sget0 (s_stats s) (s_active s))
                       else add_dead (sget0 (s_stats s) (s_active s)) (entry_size (mkEntry (s_clock s) k v))) /\
    sorted (s_dir s') /\ ids_le (s_dir s') (s_last s') /\ (forall id f, In (id, f) (s_dir s') -> hints_ok f) /\
    s_stale s' = false /\ s_active s' = s_last s' /\
    (exists fa, dir_get (s_dir s') (s_active s') = Some fa /\ d_hint fa = None) /\
    s_clock s' = (s_clock s + 1)%Z.
Proof.
  (* [inv_append] is the append: one more entry of the log, in the active file.  [write] leaves the
     index to its caller, and a rollover only adds an empty file ([new_active_shape]), which the log
     does not show. *)
  intros HI. destruct (inv_append s (mkEntry (s_clock s) k v) HI) as (d2 & pos & Ha & Hlog & Hok2 & Hfa2).
  unfold write. rewrite (Inv_stale s HI), Ha.
  set (e := mkEntry (s_clock s) k v) in *. set (en := (s_active s, pos, e)) in *.
  assert (Hwf : wfL (slog s ++ [en])) by (rewrite <- Hlog; apply wfL_log_of_dir, Hok2).
  replace (match v with Some _ => add_live _ | None => _ end)
    with (if is_value en then add_live (sget0 (s_stats s) (s_active s))
          else add_dead (sget0 (s_stats s) (s_active s)) (entry_size e)) by (destruct v; reflexivity).
  set (s2 := mkSt d2 (s_idx s) _ (s_active s) _ (s_last s) false (s_clock s + 1)%Z).
  destruct (c_max c <? s_written s + entry_size e).
  - (* the file is full: the next one is created at once *)
    destruct (new_active_shape s2 Hok2)
      as (s3 & Hna & ((Hs3 & Hle3 & Hh3) & Hst3 & Ha3 & Hfa3) & Hlog3 & Hi3 & Hx3 & Hc3).
    rewrite Hna. eexists s3, _, _. split; [reflexivity|]. cbn [l_pos]. fold e en.
    rewrite Hlog3, Hi3, Hx3, Hc3. unfold slog at 1. cbn [s_dir s_idx s_stats s_clock]. repeat split; assumption.
  - destruct Hok2 as (Hs2 & Hle2 & Hh2). exists s2. eexists _, _. split; [reflexivity|]. cbn [l_pos]. fold e en.
    unfold slog at 1. cbn [s2 s_dir s_idx s_stats s_active s_last s_stale s_clock].
    repeat split; try assumption; try reflexivity. exact (Inv_last s HI).
Qed.
