(* Store/Discipline.v — every trace of the model obeys the file discipline of C14: the monitor of
   Store/Trace.v accepts the system calls of every ready script (sets, deletes, reopens, merges) —
   data files are created under fresh, growing ids; every write appends to the data file created last
   or to its hint file; a data file is only extended while it does not exceed the maximum size.
   Proof: a monitor over the byte-level file system of Store/Crash.v ([fstep]) is simulated by the
   list-based monitor, and is run forward along the trace of each operation. *)
From BC Require Import Base.Bytes Store.Codec Store.CodecProofs Store.Engine Store.Log Store.Step Store.Cons Store.Inv Store.Refine
  Store.MergeLemmas Store.Merge Store.Sizes Store.Theorems Store.Trace Store.Crash Store.CrashScript Store.CrashMerge.
From Coq Require Import Lia List NArith ZArith Bool.
Import ListNotations.
Open Scope N_scope.

Definition fmon := (fs * option N * option N)%type.     (* files, largest id ever, append target *)

Definition fstep (maxsize : N) (st : fmon) (c : syscall) : option fmon :=
  let '(s, mx, cur) := st in
  match c with
  | SCreate (FData i) => match s (FData i) with
                         | None => if gt_max mx i then Some (fupd s (FData i) (Some []), Some i, Some i) else None
                         | Some _ => None end
  | SCreate (FHint i) => match s (FHint i) with
                         | None => if is_cur cur i then Some (fupd s (FHint i) (Some []), mx, cur) else None
                         | Some _ => None end
  | SWrite f b => match s f with
                  | Some x => if is_cur cur (fid f) && (match f with FData _ => blen x <=? maxsize | FHint _ => true end)
                              then Some (fupd s f (Some (x ++ b)), mx, cur) else None
                  | None => None end
  | SFsync f => match s f with Some _ => Some st | None => None end
  | SUnlink f => match s f with Some _ => Some (fupd s f None, mx, cur) | None => None end
  end.
Fixpoint frun (maxsize : N) (st : fmon) (t : list syscall) : option fmon :=
  match t with [] => Some st | c :: t' => match fstep maxsize st c with Some st' => frun maxsize st' t' | None => None end end.

Lemma frun_app maxsize t1 : forall st t2, frun maxsize st (t1 ++ t2) = match frun maxsize st t1 with Some st' => frun maxsize st' t2 | None => None end.
Proof. induction t1 as [|c t1 IH]; intros st t2; cbn [app frun]; [reflexivity|]. destruct (fstep maxsize st c); [apply IH|reflexivity]. Qed.

(* the monitor runs the file system, lets a call through on the two counters alone (and on the size of a data file
   written to), and moves the counters at the creation of a data file only *)
Lemma fstep_inv maxsize f mx cur c f' mx' cur' : fstep maxsize (f, mx, cur) c = Some (f', mx', cur') ->
  fs_step f c = Some f' /\
  match c with
  | SCreate (FData i) => gt_max mx i = true /\ mx' = Some i /\ cur' = Some i
  | SCreate (FHint i) => is_cur cur i = true /\ mx' = mx /\ cur' = cur
  | SWrite g _ => is_cur cur (fid g) = true /\ mx' = mx /\ cur' = cur
  | SFsync _ | SUnlink _ => mx' = mx /\ cur' = cur
  end.
Proof.
  unfold fstep, fs_step. destruct c as [[i|i]|g b|g|g].
  - destruct (f (FData i)); [discriminate|]. destruct (gt_max mx i); [|discriminate]. intros H. injection H as <- <- <-. auto.
  - destruct (f (FHint i)); [discriminate|]. destruct (is_cur cur i); [|discriminate]. intros H. injection H as <- <- <-. auto.
  - destruct (f g) as [x|]; [|discriminate]. destruct (is_cur cur (fid g)); [|discriminate]. cbn [andb].
    destruct (match g with FData _ => _ | FHint _ => _ end); [|discriminate]. intros H. injection H as <- <- <-. auto.
  - destruct (f g); [|discriminate]. intros H. injection H as <- <- <-. auto.
  - destruct (f g); [|discriminate]. intros H. injection H as <- <- <-. auto.
Qed.

Lemma frun_fs maxsize : forall t f mx cur f' mx' cur', frun maxsize (f, mx, cur) t = Some (f', mx', cur') -> fs_run f t = Some f'.
Proof.
  induction t as [|c t IH]; intros f mx cur f' mx' cur' H; cbn [frun fs_run] in *; [injection H as <- _ _; reflexivity|].
  destruct (fstep maxsize (f, mx, cur) c) as [[[f1 mx1] cur1]|] eqn:Es; [|discriminate].
  rewrite (proj1 (fstep_inv _ _ _ _ _ _ _ _ Es)). exact (IH _ _ _ _ _ _ H).
Qed.

Definition keys_distinct (l : list (fname * N)) : Prop := NoDup (map fst l).

Lemma fname_eqb_spec a b : reflect (a = b) (fname_eqb a b).
Proof. exact (fn_eqb_spec a b). Qed.

Lemma fupd_eqb s f v g : fupd s f v g = if fname_eqb f g then v else s g.
Proof. destruct (fname_eqb_spec f g) as [<-|Hne]; [apply fupd_same|apply fupd_other; congruence]. Qed.

Lemma fsize_of_in l f : In f (map fst l) <-> fsize_of l f <> None.
Proof.
  induction l as [|[g z] l IH]; cbn [fsize_of map fst In]; [split; [intros []|congruence]|].
  destruct (fname_eqb_spec g f) as [->|Hne].
  - split; [discriminate|auto].
  - rewrite <- IH. split; [intros [H|H]; [contradiction|exact H]|auto].
Qed.

Lemma fsize_of_none l f : fsize_of l f = None <-> ~ In f (map fst l).
Proof. rewrite fsize_of_in. destruct (fsize_of l f); intuition congruence. Qed.

Lemma fsize_fset l f z g : fsize_of (fset l f z) g = if fname_eqb f g then Some z else fsize_of l g.
Proof.
  induction l as [|[h y] l IH]; cbn [fset fsize_of]; [reflexivity|].
  destruct (fname_eqb_spec h f) as [->|Hne]; cbn [fsize_of].
  - destruct (fname_eqb f g); reflexivity.
  - rewrite IH. destruct (fname_eqb_spec h g) as [->|]; [|reflexivity].
    destruct (fname_eqb_spec f g) as [->|]; [contradiction|reflexivity].
Qed.

Lemma fsize_fdel l f g : keys_distinct l -> fsize_of (fdel l f) g = if fname_eqb f g then None else fsize_of l g.
Proof.
  unfold keys_distinct. induction l as [|[h y] l IH]; cbn [fdel fsize_of map fst]; intros H; [destruct (fname_eqb f g); reflexivity|].
  inversion H as [|? ? Hnot Hnd]; subst. destruct (fname_eqb_spec h f) as [->|Hne]; cbn [fsize_of].
  - destruct (fname_eqb_spec f g) as [->|]; [|reflexivity]. apply fsize_of_none. exact Hnot.
  - destruct (fname_eqb_spec h g) as [->|]; [|apply IH; exact Hnd].
    destruct (fname_eqb_spec f g) as [->|]; [contradiction|reflexivity].
Qed.

(* a key is absent where [fsize_of] is [None], so the equations above also say which keys remain *)
Lemma fset_distinct l f z : keys_distinct l -> keys_distinct (fset l f z).
Proof.
  unfold keys_distinct. induction l as [|[h y] l IH]; cbn [fset map fst]; intros H.
  - constructor; [intros []|constructor].
  - inversion H as [|? ? Hnot Hnd]; subst. destruct (fname_eqb_spec h f) as [->|Hne]; cbn [map fst]; [constructor; assumption|].
    constructor; [|apply IH; exact Hnd]. apply fsize_of_none. rewrite fsize_fset.
    destruct (fname_eqb_spec f h) as [->|]; [contradiction|]. apply fsize_of_none. exact Hnot.
Qed.

Lemma fdel_distinct l f : keys_distinct l -> keys_distinct (fdel l f).
Proof.
  unfold keys_distinct. induction l as [|[h y] l IH]; cbn [fdel map fst]; intros H; [constructor|].
  inversion H as [|? ? Hnot Hnd]; subst. destruct (fname_eqb h f); cbn [map fst]; [exact Hnd|].
  constructor; [|apply IH; exact Hnd]. apply fsize_of_none. rewrite (fsize_fdel _ _ _ Hnd).
  destruct (fname_eqb f h); [reflexivity|]. apply fsize_of_none. exact Hnot.
Qed.

Definition MRel (mo : mon) (st : fmon) : Prop :=
  let '(s, mx, cur) := st in
  keys_distinct (mn_files mo) /\ (forall f, fsize_of (mn_files mo) f = option_map blen (s f)) /\ mn_max mo = mx /\ mn_cur mo = cur.

Lemma MRel_fset mo s mx cur f x mx' cur' : MRel mo (s, mx, cur) ->
  MRel (mkMon (fset (mn_files mo) f (blen x)) mx' cur') (fupd s f (Some x), mx', cur').
Proof.
  intros (Hd & Hf & _). cbn [MRel mn_files mn_max mn_cur]. split; [apply fset_distinct; exact Hd|]. split; [|auto].
  intros g. rewrite fsize_fset, fupd_eqb, Hf. destruct (fname_eqb f g); reflexivity.
Qed.

Lemma MRel_fdel mo s mx cur f mx' cur' : MRel mo (s, mx, cur) ->
  MRel (mkMon (fdel (mn_files mo) f) mx' cur') (fupd s f None, mx', cur').
Proof.
  intros (Hd & Hf & _). cbn [MRel mn_files mn_max mn_cur]. split; [apply fdel_distinct; exact Hd|]. split; [|auto].
  intros g. rewrite (fsize_fdel _ _ _ Hd), fupd_eqb, Hf. destruct (fname_eqb f g); reflexivity.
Qed.

Lemma sim_step maxsize mo st c st' : MRel mo st -> fstep maxsize st c = Some st' ->
  exists mo', disc_step maxsize mo c = Some mo' /\ MRel mo' st'.
Proof.
  destruct st as [[s mx] cur]. intros HR H. pose proof HR as (_ & Hf & Hmx & Hcur). unfold fstep in H. unfold disc_step.
  destruct c as [[i|i]|f b|f|f]; rewrite Hf.
  - destruct (s (FData i)); [discriminate|]. cbn [option_map]. rewrite Hmx. destruct (gt_max mx i); [|discriminate].
    inversion H; subst. eexists. split; [reflexivity|]. exact (MRel_fset mo s _ _ (FData i) [] _ _ HR).
  - destruct (s (FHint i)); [discriminate|]. cbn [option_map]. rewrite Hcur. destruct (is_cur cur i); [|discriminate].
    inversion H; subst. eexists. split; [reflexivity|]. exact (MRel_fset mo s _ _ (FHint i) [] _ _ HR).
  - destruct (s f) as [x|]; [|discriminate]. cbn [option_map]. rewrite Hcur.
    destruct (is_cur cur (fid f) && match f with FData _ => blen x <=? maxsize | FHint _ => true end); [|discriminate].
    inversion H; subst. eexists. split; [reflexivity|]. rewrite <- blen_app. exact (MRel_fset mo s _ _ f (x ++ b) _ _ HR).
  - destruct (s f); [|discriminate]. inversion H; subst. exists mo. split; [reflexivity|exact HR].
  - destruct (s f); [|discriminate]. inversion H; subst. eexists. split; [reflexivity|]. exact (MRel_fdel mo s _ _ f _ _ HR).
Qed.

Lemma sim_run maxsize : forall t mo st st', MRel mo st -> frun maxsize st t = Some st' ->
  exists mo', disc_run maxsize mo t = Some mo' /\ MRel mo' st'.
Proof.
  induction t as [|c t IH]; intros mo st st' HR H; cbn [frun disc_run] in *.
  - inversion H; subst. eauto.
  - destruct (fstep maxsize st c) as [st1|] eqn:E; [|discriminate].
    destruct (sim_step maxsize mo st c st1 HR E) as (mo1 & H1 & HR1). rewrite H1. eapply IH; eauto.
Qed.

Definition plain (c : syscall) : bool := match c with SFsync _ | SUnlink _ => true | _ => false end.

Lemma frun_plain maxsize mx cur : forall t f f', forallb plain t = true -> fs_run f t = Some f' -> frun maxsize (f, mx, cur) t = Some (f', mx, cur).
Proof.
  induction t as [|c t IH]; intros f f' Hp H; cbn [fs_run frun forallb] in *; [inversion H; reflexivity|].
  apply andb_true_iff in Hp as [Hc Hp]. destruct c as [g|g b|g|g]; try discriminate; cbn [fs_step fstep] in *.
  - destruct (f g); [|discriminate]. apply IH; assumption.
  - destruct (f g); [|discriminate]. apply IH; assumption.
Qed.

Lemma unlink_trace_plain : forall sel d, forallb plain (unlink_trace d sel) = true.
Proof.
  induction sel as [|id sel IH]; intros d; cbn [unlink_trace]; [reflexivity|]. rewrite forallb_app, IH, andb_true_r.
  destruct (dir_get d id) as [f|]; [|reflexivity]. destruct (d_hint f); reflexivity.
Qed.

Lemma lt_next n : n < n + 1.
Proof. exact (N.lt_add_pos_r 1 n N.lt_0_1). Qed.

(* what the monitor does on each call the model issues, as an equation on [frun]: rewriting with these
   walks a trace without unfolding [fstep] *)
Lemma frun_create_data maxsize f mx cur n t : f (FData n) = None -> mx < n ->
  frun maxsize (f, Some mx, cur) (SCreate (FData n) :: t) = frun maxsize (fupd f (FData n) (Some []), Some n, Some n) t.
Proof. intros Hf Hlt. apply N.ltb_lt in Hlt. cbn [frun fstep gt_max]. rewrite Hf, Hlt. reflexivity. Qed.

Lemma frun_create_pair maxsize f mx cur n t : f (FData n) = None -> f (FHint n) = None -> mx < n ->
  frun maxsize (f, Some mx, cur) (SCreate (FData n) :: SCreate (FHint n) :: t) =
  frun maxsize (fupd (fupd f (FData n) (Some [])) (FHint n) (Some []), Some n, Some n) t.
Proof.
  intros Hd Hh Hlt. rewrite (frun_create_data _ _ _ _ _ _ Hd Hlt). cbn [frun fstep is_cur].
  rewrite fupd_other by discriminate. rewrite Hh, N.eqb_refl. reflexivity.
Qed.

Lemma frun_write_data maxsize f mx a x b t : f (FData a) = Some x -> blen x <= maxsize ->
  frun maxsize (f, mx, Some a) (SWrite (FData a) b :: t) = frun maxsize (fupd f (FData a) (Some (x ++ b)), mx, Some a) t.
Proof. intros Hf Hle. apply N.leb_le in Hle. cbn [frun fstep is_cur fid]. rewrite Hf, N.eqb_refl, Hle. reflexivity. Qed.

Lemma frun_write_hint maxsize f mx a x b t : f (FHint a) = Some x ->
  frun maxsize (f, mx, Some a) (SWrite (FHint a) b :: t) = frun maxsize (fupd f (FHint a) (Some (x ++ b)), mx, Some a) t.
Proof. intros Hf. cbn [frun fstep is_cur fid]. rewrite Hf, N.eqb_refl. reflexivity. Qed.

Lemma frun_fsync maxsize f mx cur g x t : f g = Some x -> frun maxsize (f, mx, cur) (SFsync g :: t) = frun maxsize (f, mx, cur) t.
Proof. intros H. cbn [frun fstep]. rewrite H. reflexivity. Qed.

Lemma frun_sync maxsize f mx cur c a x : f (FData a) = Some x -> frun maxsize (f, mx, cur) (sync_calls c a) = Some (f, mx, cur).
Proof. intros H. unfold sync_calls. destruct (c_sync c); [rewrite (frun_fsync _ _ _ _ _ _ _ H)|]; reflexivity. Qed.

(* [f] holds the directory of [s], and the active file has the size the writer counts, within the limit *)
Definition FS (c : cfg) (s : st) (f : fs) : Prop :=
  rep f (s_dir s) /\
  exists fa, dir_get (s_dir s) (s_active s) = Some fa /\ data_size (d_data fa) = s_written s /\ s_written s <= c_max c.

(* a fresh, empty data file [n] becomes the active one: the last call of a rollover, of a reopen, of a merge *)
Lemma create_forward c f d mx cur n s' : rep f d -> dir_get d n = None -> mx < n ->
  s_dir s' = d ++ [(n, empty_file)] -> s_last s' = n -> s_active s' = n -> s_written s' = 0 ->
  let f' := fupd f (FData n) (Some []) in
  frun (c_max c) (f, Some mx, cur) [SCreate (FData n)] = Some (f', Some (s_last s'), Some (s_active s')) /\ FS c s' f'.
Proof.
  intros Hrep Hn Hlt Hd Hl Ha Hw f'. destruct (rep_none f d n Hrep Hn) as [Hnd _].
  rewrite Hl, Ha, (frun_create_data _ _ _ _ _ _ Hnd Hlt). split; [reflexivity|].
  unfold FS. rewrite Hd, Ha, Hw. split; [exact (proj2 (rep_after_create f d n Hrep Hn))|].
  exists empty_file. rewrite <- (dir_set_new _ _ _ Hn), dir_get_set, N.eqb_refl.
  split; [reflexivity|]. split; [reflexivity|apply N.le_0_l].
Qed.

Lemma write_forward c s k v s' l t f : Inv s -> FS c s f -> write c s k v = ROk (s', l, t) ->
  exists f', frun (c_max c) (f, Some (s_last s), Some (s_active s)) t = Some (f', Some (s_last s'), Some (s_active s')) /\ FS c s' f'.
Proof.
  intros HI (Hrep & fa' & Hfa' & Hsz & Hw) H.
  destruct (write_shape c s k v s' l t HI H) as (fa & Hfa & Hfh & Hshape). cbv zeta in Hshape.
  rewrite Hfa in Hfa'. injection Hfa' as <-.
  set (e := mkEntry (s_clock s) k v) in *. set (a := s_active s) in *.
  set (d2 := dir_set (s_dir s) a (mkFile (d_data fa ++ [e]) None)) in *.
  destruct (rep_get f (s_dir s) a fa Hrep Hfa) as [Hfd _].
  set (f1 := fupd f (FData a) (Some (file_bytes (d_data fa) ++ enc_entry e))).
  assert (Hrep1 : rep f1 d2) by (apply rep_after_write; assumption).
  assert (Hf1 : f1 (FData a) = Some (file_bytes (d_data fa) ++ enc_entry e)) by apply fupd_same.
  rewrite <- Hsz, <- blen_file_bytes in Hw.
  destruct Hshape as [(-> & Hd & Ha & Hl & Hwr & Hmax)|(-> & Hd & Hn & Ha & Hl & Hwr)].
  - exists f1. rewrite Ha, Hl, (frun_write_data _ _ _ _ _ _ _ Hfd Hw). split; [exact (frun_sync _ _ _ _ c a _ Hf1)|].
    unfold FS. rewrite Hd, Ha. split; [exact Hrep1|].
    eexists. split; [unfold d2; rewrite dir_get_set, N.eqb_refl; reflexivity|]. cbn [d_data]. rewrite data_size_app, Hwr. cbn [data_size].
    split; [lia|rewrite <- Hwr; exact Hmax].
  - destruct (create_forward c f1 d2 (s_last s) (Some a) (s_last s + 1) s' Hrep1 Hn (lt_next _) Hd Hl Ha Hwr) as [Hc HFS'].
    eexists. split; [|exact HFS']. rewrite (frun_write_data _ _ _ _ _ _ _ Hfd Hw), frun_app, (frun_sync _ _ _ _ c a _ Hf1). exact Hc.
Qed.

(* the monitor state during the merge loop *)
Definition FI (c : cfg) (st0 : fmon) (m : mstate) : Prop :=
  exists f, frun (c_max c) st0 (rev (m_trace m)) = Some (f, Some (m_last m), Some (m_id m)) /\ rep f (m_dir m) /\ m_pos m <= c_max c.

Lemma merge_one_forward c s S m M k l m' M' st0 :
  LI s S m M -> LI s S m' M' -> merge_one c m k l = ROk m' -> FI c st0 m -> FI c st0 m'.
Proof.
  intros HLI HLI' Hone (f & Hrun & Hrep & Hpos).
  destruct (merge_one_fs c s S m M k l m' M' f HLI HLI' Hone Hrep) as (fm & e & Hfs). cbv zeta in Hfs.
  set (a := m_id m) in *. set (es := d_data fm) in *. set (hs := hints_of es 0) in *. set (h := mkHint (l_ts l) (l_len l) (m_pos m) k) in *.
  set (f1 := fupd f (FData a) (Some (file_bytes es ++ enc_entry e))) in *. set (f2 := fupd f1 (FHint a) (Some (hint_bytes hs ++ enc_hint h))) in *.
  destruct Hfs as (_ & _ & Hposm & Hfd & Hfh & Hrep2 & _ & _ & _ & Hcase).
  assert (Hf1h : f1 (FHint a) = Some (hint_bytes hs)) by (unfold f1; rewrite fupd_other by discriminate; exact Hfh).
  assert (Hw : forall t, frun (c_max c) (f, Some (m_last m), Some a) (SWrite (FData a) (enc_entry e) :: SWrite (FHint a) (enc_hint h) :: t) =
                         frun (c_max c) (f2, Some (m_last m), Some a) t).
  { intros t. rewrite (frun_write_data _ _ _ _ _ _ _ Hfd) by (rewrite blen_file_bytes, <- Hposm; exact Hpos).
    apply (frun_write_hint _ _ _ _ _ _ _ Hf1h). }
  destruct Hcase as [(Hd & Hid' & Hl' & Hp' & Ht)|(Hd & Hid' & Hl' & Hp' & Ht & _ & Hnd & Hnh & _ & Hrep4)].
  - exists f2. rewrite Ht, frun_app, Hrun, Hw, Hid', Hl', Hd. auto.
  - assert (Hf2d : f2 (FData a) = Some (file_bytes es ++ enc_entry e)) by (unfold f2; rewrite fupd_other by discriminate; apply fupd_same).
    eexists. rewrite Ht, frun_app, Hrun, Hid', Hl', Hp'. cbn [app].
    rewrite Hw, (frun_fsync _ _ _ _ _ _ _ Hf2d), (frun_fsync _ f2 _ _ _ _ _ (fupd_same _ _ _)), (frun_create_pair _ _ _ _ _ _ Hnd Hnh (lt_next _)).
    split; [reflexivity|]. split; [exact Hrep4|apply N.le_0_l].
Qed.

Lemma merge_forward c s ord f0 : Inv s -> merge_ready c s ord -> rep f0 (s_dir s) ->
  exists s' t, merge c s ord = ROk (s', tt, t) /\
  exists f', frun (c_max c) (f0, Some (s_last s), Some (s_active s)) t = Some (f', Some (s_last s'), Some (s_active s')) /\ FS c s' f'.
Proof.
  intros HI Hready Hrep0.
  destruct (merge_phases c s ord HI Hready) as (sel & m & M & s' & Hph). cbv zeta in Hph.
  set (S := fun g => mem g sel) in *. set (id0 := s_last s + 1) in *.
  set (m0 := mkM (s_dir s ++ [(id0, mkFile [] (Some []))]) (s_idx s) (s_stats s) id0 0 id0 [SCreate (FHint id0); SCreate (FData id0)]) in *.
  set (d2 := dir_filter S (m_dir m)) in *.
  destruct Hph as (HSle & Hn0 & _ & HLI0 & Hloop & HLI & Hgood_all & Hn2 & Hm & Hd' & _ & Hl' & Ha' & Hw').
  eexists s', _. split; [exact Hm|]. clear Hm.
  destruct (create_pair_fs f0 (s_dir s) id0 Hrep0 Hn0) as (Hnd & Hnh & _ & Hr2).
  assert (FI0 : FI c (f0, Some (s_last s), Some (s_active s)) m0).
  { eexists. unfold m0. cbn [m_trace m_dir m_last m_id m_pos rev app]. rewrite (frun_create_pair _ _ _ _ _ _ Hnd Hnh (lt_next _)).
    split; [reflexivity|]. split; [exact Hr2|apply N.le_0_l]. }
  destruct (merge_loop_inv c s S sel (FI c _) (fun g => eq_refl) HSle (fun m1 M1 k l m2 M2 => merge_one_forward c s S m1 M1 k l m2 M2 _) ord m0 [] m HLI0 Hloop FI0)
    as (f & Hrun & Hrepm & _).
  (* fsyncs and unlinks: calls the monitor does not guard, so the file system's own run is the monitor's *)
  destruct (merge_tail s sel m M f HLI Hgood_all Hrepm) as (f' & [Hrun' _] & Hrep').
  destruct (create_forward c f' d2 (m_last m) (Some (m_id m)) (m_last m + 1) s' Hrep' Hn2 (lt_next _) Hd' Hl' Ha' Hw') as [Hc HFS'].
  eexists. split; [|exact HFS'].
  rewrite frun_app, Hrun, 2 app_comm_cons, frun_app, (frun_plain _ _ _ (SFsync _ :: SFsync _ :: _) f f' (unlink_trace_plain sel (m_dir m)) Hrun'). exact Hc.
Qed.

Lemma step_forward c s o f : Inv s -> op_ready c s o -> FS c s f ->
  let '(s', _, t) := step c s o in
  exists f', frun (c_max c) (f, Some (s_last s), Some (s_active s)) t = Some (f', Some (s_last s'), Some (s_active s')) /\ FS c s' f'.
Proof.
  intros HI Hready HFS.
  assert (Hwr : is_write o -> let '(s', _, t) := step c s o in
            exists f', frun (c_max c) (f, Some (s_last s), Some (s_active s)) t = Some (f', Some (s_last s'), Some (s_active s')) /\ FS c s' f').
  { intros Ho. pose proof (step_write c s o HI Ho) as H. destruct (step c s o) as [[s' r] t].
    destruct H as (k & v & s1 & l & Hw & Hd & Ha & Hl & Hwr).
    unfold FS. rewrite Hd, Ha, Hl, Hwr. exact (write_forward c s k v s1 l t f HI HFS Hw). }
  destruct o as [k v|k|k|ord| |tm]; [exact (Hwr I)| |exact (Hwr I)| | |]; clear Hwr; cbn [step].
  - rewrite (get_abs s k HI). exists f. split; [reflexivity|exact HFS].
  - destruct (merge_forward c s ord f HI Hready (proj1 HFS)) as (s' & t & -> & Hfw). exact Hfw.
  - destruct (reopen_shape s HI) as (_ & Hn & i & x & _ & ->). eexists.
    apply (create_forward c f (s_dir s) (s_last s) _ (s_last s + 1) _ (proj1 HFS) Hn (lt_next _)); reflexivity.
  - exists f. split; [reflexivity|exact HFS].
Qed.

Theorem run_forward c : forall ops s f, Inv s -> run_ready c s ops -> FS c s f ->
  let '(s', _, t) := run c s ops in
  exists f', frun (c_max c) (f, Some (s_last s), Some (s_active s)) t = Some (f', Some (s_last s'), Some (s_active s')) /\ FS c s' f'.
Proof.
  induction ops as [|o ops IH]; intros s f HI Hready HFS; cbn [run run_ready] in *; [exists f; split; [reflexivity|exact HFS]|].
  destruct Hready as [Hr1 Hr2]. pose proof (step_forward c s o f HI Hr1 HFS) as Hstep. pose proof (step_refines c s o HI Hr1) as Href.
  destruct (step c s o) as [[s1 r] t]. cbn [fst] in Hr2. destruct Href as (HI1 & _). destruct Hstep as (f1 & Hrun1 & HFS1).
  specialize (IH s1 f1 HI1 Hr2 HFS1). destruct (run c s1 ops) as [[s2 rs] ts]. destruct IH as (f2 & Hrun2 & HFS2).
  exists f2. rewrite frun_app, Hrun1. split; [exact Hrun2|exact HFS2].
Qed.

(* C14 for the model: the list-based monitor accepts the whole trace of a process that opens an empty
   directory and runs any ready script *)
Theorem model_traces_accepted c ops : run_ready c init ops ->
  disc_ok (c_max c) (mon_init []) (SCreate (FData 0) :: snd (run c init ops)) = true.
Proof.
  intros Hready. set (f0 := fupd (fun _ => None) (FData 0) (Some [])).
  assert (HFS : FS c init f0).
  { split.
    - apply (rep_after_create (fun _ => None) [] 0); [|reflexivity]. apply rep_iff. intros id. split; reflexivity.
    - exists empty_file. split; [reflexivity|]. split; [reflexivity|apply N.le_0_l]. }
  pose proof (run_forward c ops init f0 (proj1 init_inv) Hready HFS) as Hrun.
  destruct (run c init ops) as [[s' rs] t]. destruct Hrun as (f' & Hrun & _). cbn [snd].
  assert (HR0 : MRel (mon_init []) (fun _ => None, None, None)).
  { split; [constructor|]. split; [reflexivity|split; reflexivity]. }
  (* the first create takes the monitor from its initial state to the state [run_forward] starts in *)
  destruct (sim_run (c_max c) (SCreate (FData 0) :: t) _ _ _ HR0 Hrun) as (mo' & Hd & _).
  unfold disc_ok. rewrite Hd. reflexivity.
Qed.
