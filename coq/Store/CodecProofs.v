(* Store/CodecProofs.v — the byte layout of data and hint files, proved against its decoders:
   decoding inverts encoding whatever follows; every strict prefix of an encoding is "end of input"
   (never an error, never a shorter record); hence scanning the bytes of a file — also when the last
   record is torn at ANY byte — yields exactly its complete records at the positions the engine
   model computes.  This is what makes the record-level files of Store/Engine.v a faithful
   abstraction of the bytes on disk. *)
From BC Require Import Base.Bytes Store.Codec.
From Coq Require Import Lia List NArith ZArith.
Import ListNotations.
Open Scope N_scope.

Lemma le_bytes_length : forall n x, length (le_bytes n x) = n.
Proof. induction n as [|n IH]; intros x; cbn [le_bytes length]; [reflexivity|]. rewrite IH. reflexivity. Qed.

Lemma le_value_le_bytes : forall n x, x < 256 ^ N.of_nat n -> le_value (le_bytes n x) = x.
Proof.
  induction n as [|n IH]; intros x H; cbn [le_bytes le_value].
  - cbn in H. lia.
  - rewrite IH.
    + pose proof (N.div_mod x 256 ltac:(lia)). lia.
    + rewrite Nat2N.inj_succ, N.pow_succ_r' in H. apply N.div_lt_upper_bound; lia.
Qed.

Lemma take_app (a r : bytes) : take (length a) (a ++ r) = Some (a, r).
Proof.
  unfold take. rewrite app_length. replace (Nat.leb (length a) (length a + length r)) with true by (symmetry; apply Nat.leb_le; lia).
  rewrite firstn_app, Nat.sub_diag, firstn_all, skipn_app, Nat.sub_diag, skipn_all. cbn. rewrite app_nil_r. reflexivity.
Qed.

Lemma take_short n (p : bytes) : (length p < n)%nat -> take n p = None.
Proof. intros H. unfold take. replace (Nat.leb n (length p)) with false by (symmetry; apply Nat.leb_gt; lia). reflexivity. Qed.

Lemma dec_u64_enc x r : x < 2 ^ 64 -> dec_u64 (u64_bytes x ++ r) = DOk x r.
Proof.
  intros H. unfold dec_u64, u64_bytes. pose proof (take_app (le_bytes 8 x) r) as T. rewrite le_bytes_length in T. rewrite T.
  rewrite le_value_le_bytes; [reflexivity|]. exact H.
Qed.

Definition i64_ok (z : Z) : Prop := (- 2 ^ 63 <= z < 2 ^ 63)%Z.

Lemma i64_roundtrip z : i64_ok z -> i64_of_u64 (Z.to_N (z mod 2 ^ 64)) = z.
Proof.
  unfold i64_ok, i64_of_u64. intros H.
  destruct (Z_lt_le_dec z 0) as [Hn|Hp].
  - assert (E : (z mod 2 ^ 64 = z + 2 ^ 64)%Z) by (symmetry; apply Z.mod_unique_pos with (q := (-1)%Z); lia).
    rewrite E. destruct (N.ltb_spec (Z.to_N (z + 2 ^ 64)) (2 ^ 63)) as [Hl|Hl]; [lia|]. rewrite Z2N.id by lia. lia.
  - assert (E : (z mod 2 ^ 64 = z)%Z) by (apply Z.mod_small; lia).
    rewrite E. destruct (N.ltb_spec (Z.to_N z) (2 ^ 63)) as [Hl|Hl]; [rewrite Z2N.id by lia; reflexivity|lia].
Qed.

Lemma dec_i64_enc z r : i64_ok z -> dec_i64 (i64_bytes z ++ r) = DOk z r.
Proof.
  intros H. unfold dec_i64, i64_bytes. change (le_bytes 8 ?x) with (u64_bytes x).
  rewrite dec_u64_enc.
  - rewrite i64_roundtrip by exact H. reflexivity.
  - pose proof (Z.mod_pos_bound z (2 ^ 64) ltac:(lia)). lia.
Qed.

Lemma dec_bytes_enc b r : blen b < 2 ^ 64 -> dec_bytes (enc_bytes b ++ r) = DOk b r.
Proof.
  intros H. unfold dec_bytes, enc_bytes. rewrite <- app_assoc, dec_u64_enc by exact H.
  unfold blen. rewrite Nat2N.id, take_app. reflexivity.
Qed.

Definition wf_entry (e : entry) : Prop :=
  i64_ok (e_ts e) /\ blen (e_key e) < 2 ^ 64 /\ match e_val e with Some v => blen v < 2 ^ 64 | None => True end.
Definition wf_hint (h : hint) : Prop :=
  i64_ok (h_ts h) /\ h_len h < 2 ^ 64 /\ h_pos h < 2 ^ 64 /\ blen (h_key h) < 2 ^ 64.

Theorem dec_entry_enc e r : wf_entry e -> dec_entry (enc_entry e ++ r) = DOk e r.
Proof.
  destruct e as [ts k v]. intros (Ht & Hk & Hv). cbn [e_ts e_key e_val] in *. unfold dec_entry, enc_entry. cbn [e_ts e_key e_val].
  rewrite <- !app_assoc, dec_i64_enc by exact Ht. rewrite dec_bytes_enc by exact Hk.
  destruct v as [v|]; cbn [app].
  - change (1 =? 0) with false. change (1 =? 1) with true. cbv iota. rewrite dec_bytes_enc by exact Hv. reflexivity.
  - change (0 =? 0) with true. reflexivity.
Qed.

Theorem dec_hint_enc h r : wf_hint h -> dec_hint (enc_hint h ++ r) = DOk h r.
Proof.
  destruct h as [ts len pos k]. intros (Ht & Hl & Hp & Hk). cbn [h_ts h_len h_pos h_key] in *. unfold dec_hint, enc_hint. cbn [h_ts h_len h_pos h_key].
  rewrite <- !app_assoc, dec_i64_enc by exact Ht. rewrite dec_u64_enc by exact Hl. rewrite dec_u64_enc by exact Hp.
  rewrite dec_bytes_enc by exact Hk. reflexivity.
Qed.

Lemma blen_app (a b : bytes) : blen (a ++ b) = blen a + blen b.
Proof. unfold blen. rewrite app_length. lia. Qed.
Lemma blen_cons (x : N) (a : bytes) : blen (x :: a) = 1 + blen a.
Proof. unfold blen. cbn [length]. lia. Qed.
Lemma blen_le_bytes n x : blen (le_bytes n x) = N.of_nat n.
Proof. unfold blen. rewrite le_bytes_length. reflexivity. Qed.

Theorem enc_entry_size e : blen (enc_entry e) = entry_size e.
Proof.
  destruct e as [ts k v]. unfold enc_entry, entry_size, enc_bytes, i64_bytes, u64_bytes. cbn [e_ts e_key e_val].
  rewrite !blen_app, !blen_le_bytes. destruct v as [v|].
  - rewrite blen_cons, blen_app, blen_le_bytes. cbn. lia.
  - rewrite blen_cons. cbn. lia.
Qed.

Theorem enc_hint_size h : blen (enc_hint h) = hint_size h.
Proof.
  destruct h as [ts len pos k]. unfold enc_hint, hint_size, enc_bytes, i64_bytes, u64_bytes. cbn [h_ts h_len h_pos h_key].
  rewrite !blen_app, !blen_le_bytes. cbn. lia.
Qed.

Lemma app_eq_app_cases {A} (a b p q : list A) : a ++ b = p ++ q ->
  (exists q1, q1 <> [] /\ a = p ++ q1 /\ q = q1 ++ b) \/ (exists p2, p = a ++ p2 /\ b = p2 ++ q).
Proof.
  revert p. induction a as [|x a IH]; intros p H; cbn [app] in H.
  - right. exists p. split; [reflexivity|exact H].
  - destruct p as [|y p]; cbn [app] in H.
    + left. exists (x :: a). split; [discriminate|]. split; [reflexivity|]. rewrite <- H. reflexivity.
    + inversion H as [[Hx Hr]]. subst y. destruct (IH p Hr) as [(q1 & Hq & Ha & Hq')|(p2 & Hp & Hb)].
      * left. exists q1. split; [exact Hq|]. split; [rewrite Ha; reflexivity|exact Hq'].
      * right. exists p2. split; [rewrite Hp; reflexivity|exact Hb].
Qed.

Lemma dec_u64_prefix x p q : q <> [] -> u64_bytes x = p ++ q -> dec_u64 p = DEof.
Proof.
  intros Hq E. unfold dec_u64. rewrite take_short; [reflexivity|].
  assert (L : length (u64_bytes x) = 8%nat) by apply le_bytes_length. rewrite E, app_length in L.
  destruct q; [contradiction|]. cbn [length] in L. lia.
Qed.

Lemma dec_i64_prefix z p q : q <> [] -> i64_bytes z = p ++ q -> dec_i64 p = DEof.
Proof. intros Hq E. unfold dec_i64. unfold i64_bytes in E. change (le_bytes 8 ?x) with (u64_bytes x) in E. rewrite (dec_u64_prefix _ _ _ Hq E). reflexivity. Qed.

Lemma dec_bytes_prefix b p q : blen b < 2 ^ 64 -> q <> [] -> enc_bytes b = p ++ q -> dec_bytes p = DEof.
Proof.
  intros Hb Hq E. unfold enc_bytes in E. apply app_eq_app_cases in E as [(q1 & Hq1 & Ha & _)|(p2 & Hp & Hbq)].
  - unfold dec_bytes. rewrite (dec_u64_prefix _ _ _ Hq1 Ha). reflexivity.
  - subst p. unfold dec_bytes. rewrite dec_u64_enc by exact Hb. unfold blen. rewrite Nat2N.id.
    rewrite take_short; [reflexivity|]. rewrite Hbq, app_length. destruct q; [contradiction|]. cbn [length]. lia.
Qed.

Theorem dec_entry_prefix e p q : wf_entry e -> q <> [] -> enc_entry e = p ++ q -> dec_entry p = DEof.
Proof.
  destruct e as [ts k v]. intros (Ht & Hk & Hv) Hq E. cbn [e_ts e_key e_val] in *. unfold enc_entry in E. cbn [e_ts e_key e_val] in E.
  unfold dec_entry.
  apply app_eq_app_cases in E as [(q1 & Hq1 & Ha & _)|(p2 & Hp & E2)].
  { rewrite (dec_i64_prefix _ _ _ Hq1 Ha). reflexivity. }
  subst p. rewrite dec_i64_enc by exact Ht.
  apply app_eq_app_cases in E2 as [(q1 & Hq1 & Ha & _)|(p3 & Hp & E3)].
  { rewrite (dec_bytes_prefix _ _ _ Hk Hq1 Ha). reflexivity. }
  subst p2. rewrite dec_bytes_enc by exact Hk.
  destruct v as [v|].
  - destruct p3 as [|tag p4]; [reflexivity|]. cbn [app] in E3. inversion E3 as [[Htag E4]]. subst tag.
    change (1 =? 0) with false. change (1 =? 1) with true. cbv iota.
    rewrite (dec_bytes_prefix v p4 q Hv Hq E4). reflexivity.
  - destruct p3 as [|tag p4]; [reflexivity|]. cbn [app] in E3. inversion E3 as [[Htag E4]].
    destruct p4; [|discriminate]. destruct q; [contradiction|discriminate].
Qed.

Fixpoint file_bytes (es : list entry) : bytes :=
  match es with [] => [] | e :: es' => enc_entry e ++ file_bytes es' end.

Lemma file_bytes_app es e : file_bytes (es ++ [e]) = file_bytes es ++ enc_entry e.
Proof. induction es as [|x es IH]; cbn [app file_bytes]; [rewrite app_nil_r; reflexivity|]. rewrite IH, app_assoc. reflexivity. Qed.

(* the records of a file with their positions and lengths, as the engine model lays them out *)
Fixpoint layout (pos : N) (es : list entry) : list (N * N * entry) :=
  match es with [] => [] | e :: es' => (pos, entry_size e, e) :: layout (pos + entry_size e) es' end.

Lemma scan_fuel_file : forall es fuel pos tail,
  Forall wf_entry es -> dec_entry tail = DEof -> (length es < fuel)%nat ->
  scan_fuel dec_entry fuel pos (file_bytes es ++ tail) = Some (layout pos es).
Proof.
  induction es as [|e es IH]; intros fuel pos tail Hwf Ht Hf; cbn [file_bytes layout app].
  - destruct fuel as [|fuel]; [cbn in Hf; lia|]. cbn [scan_fuel]. rewrite Ht. reflexivity.
  - destruct fuel as [|fuel]; [cbn in Hf; lia|]. cbn [scan_fuel]. inversion Hwf as [|? ? He Hes]; subst.
    rewrite <- app_assoc, dec_entry_enc by exact He.
    rewrite !blen_app. replace (blen (enc_entry e) + (blen (file_bytes es) + blen tail) - (blen (file_bytes es) + blen tail)) with (entry_size e)
      by (rewrite enc_entry_size; lia).
    rewrite IH; [reflexivity|exact Hes|exact Ht|cbn [length] in Hf; lia].
Qed.

Lemma file_bytes_length es : (length es <= length (file_bytes es))%nat.
Proof.
  induction es as [|e es IH]; cbn [file_bytes length]; [lia|]. rewrite app_length.
  assert (17 <= blen (enc_entry e)) by (rewrite enc_entry_size; unfold entry_size; lia). unfold blen in H. lia.
Qed.

Theorem scan_file es : Forall wf_entry es -> scan dec_entry (file_bytes es) = Some (layout 0 es).
Proof.
  intros H. unfold scan. rewrite <- (app_nil_r (file_bytes es)) at 2.
  apply scan_fuel_file; [exact H|reflexivity|]. pose proof (file_bytes_length es). lia.
Qed.

Theorem scan_torn_file es e p q : Forall wf_entry es -> wf_entry e -> q <> [] -> enc_entry e = p ++ q ->
  scan dec_entry (file_bytes es ++ p) = Some (layout 0 es).
Proof.
  intros H He Hq E. unfold scan. apply scan_fuel_file; [exact H|exact (dec_entry_prefix e p q He Hq E)|].
  pose proof (file_bytes_length es). rewrite app_length. lia.
Qed.

Lemma layout_entry_at : forall es pos0 pos len e, In (pos, len, e) (layout pos0 es) -> pos0 <= pos.
Proof.
  induction es as [|x es IH]; intros pos0 pos len e H; cbn [layout] in H; [destruct H|].
  destruct H as [H|H]; [inversion H; subst; lia|]. specialize (IH _ _ _ _ H). lia.
Qed.

Theorem dec_hint_prefix h p q : wf_hint h -> q <> [] -> enc_hint h = p ++ q -> dec_hint p = DEof.
Proof.
  destruct h as [ts len pos k]. intros (Ht & Hl & Hp & Hk) Hq E. cbn [h_ts h_len h_pos h_key] in *. unfold enc_hint in E. cbn [h_ts h_len h_pos h_key] in E.
  unfold dec_hint.
  apply app_eq_app_cases in E as [(q1 & Hq1 & Ha & _)|(p2 & -> & E2)].
  { rewrite (dec_i64_prefix _ _ _ Hq1 Ha). reflexivity. }
  rewrite dec_i64_enc by exact Ht.
  apply app_eq_app_cases in E2 as [(q1 & Hq1 & Ha & _)|(p3 & -> & E3)].
  { rewrite (dec_u64_prefix _ _ _ Hq1 Ha). reflexivity. }
  rewrite dec_u64_enc by exact Hl.
  apply app_eq_app_cases in E3 as [(q1 & Hq1 & Ha & _)|(p4 & -> & E4)].
  { rewrite (dec_u64_prefix _ _ _ Hq1 Ha). reflexivity. }
  rewrite dec_u64_enc by exact Hp.
  rewrite (dec_bytes_prefix k p4 q Hk Hq E4). reflexivity.
Qed.

Fixpoint hint_bytes (hs : list hint) : bytes :=
  match hs with [] => [] | h :: hs' => enc_hint h ++ hint_bytes hs' end.

Lemma hint_bytes_app hs h : hint_bytes (hs ++ [h]) = hint_bytes hs ++ enc_hint h.
Proof. induction hs as [|x hs IH]; cbn [app hint_bytes]; [rewrite app_nil_r; reflexivity|]. rewrite IH, app_assoc. reflexivity. Qed.

Fixpoint hint_layout (pos : N) (hs : list hint) : list (N * N * hint) :=
  match hs with [] => [] | h :: hs' => (pos, hint_size h, h) :: hint_layout (pos + hint_size h) hs' end.

Lemma scan_fuel_hints : forall hs fuel pos tail,
  Forall wf_hint hs -> dec_hint tail = DEof -> (length hs < fuel)%nat ->
  scan_fuel dec_hint fuel pos (hint_bytes hs ++ tail) = Some (hint_layout pos hs).
Proof.
  induction hs as [|h hs IH]; intros fuel pos tail Hwf Ht Hf; cbn [hint_bytes hint_layout app].
  - destruct fuel as [|fuel]; [cbn in Hf; lia|]. cbn [scan_fuel]. rewrite Ht. reflexivity.
  - destruct fuel as [|fuel]; [cbn in Hf; lia|]. cbn [scan_fuel]. inversion Hwf as [|? ? He Hes]; subst.
    rewrite <- app_assoc, dec_hint_enc by exact He.
    rewrite !blen_app. replace (blen (enc_hint h) + (blen (hint_bytes hs) + blen tail) - (blen (hint_bytes hs) + blen tail)) with (hint_size h)
      by (rewrite enc_hint_size; lia).
    rewrite IH; [reflexivity|exact Hes|exact Ht|cbn [length] in Hf; lia].
Qed.

Lemma hint_bytes_length hs : (length hs <= length (hint_bytes hs))%nat.
Proof.
  induction hs as [|h hs IH]; cbn [hint_bytes length]; [lia|]. rewrite app_length.
  assert (32 <= blen (enc_hint h)) by (rewrite enc_hint_size; unfold hint_size; lia). unfold blen in H. lia.
Qed.

Theorem scan_hint_file hs : Forall wf_hint hs -> scan dec_hint (hint_bytes hs) = Some (hint_layout 0 hs).
Proof.
  intros H. unfold scan. rewrite <- (app_nil_r (hint_bytes hs)) at 2.
  apply scan_fuel_hints; [exact H|reflexivity|]. pose proof (hint_bytes_length hs). lia.
Qed.

Theorem scan_torn_hint_file hs h p q : Forall wf_hint hs -> wf_hint h -> q <> [] -> enc_hint h = p ++ q ->
  scan dec_hint (hint_bytes hs ++ p) = Some (hint_layout 0 hs).
Proof.
  intros H Hh Hq E. unfold scan. apply scan_fuel_hints; [exact H|exact (dec_hint_prefix h p q Hh Hq E)|].
  pose proof (hint_bytes_length hs). rewrite app_length. lia.
Qed.

(* The bytes determine the records: two lists of well-formed records with the same bytes are equal, and a file
   whose last record is torn determines its complete records — a directory is read in one way only. *)
Lemma layout_entries : forall es pos, map (fun x => snd x) (layout pos es) = es.
Proof. induction es as [|e es IH]; intros pos; cbn [layout map snd]; [reflexivity|]. now rewrite IH. Qed.

Theorem file_bytes_inj es es' : Forall wf_entry es -> Forall wf_entry es' -> file_bytes es = file_bytes es' -> es = es'.
Proof.
  intros H H' E. pose proof (scan_file es H) as S1. pose proof (scan_file es' H') as S2. rewrite E in S1. rewrite S1 in S2.
  injection S2 as S2. rewrite <- (layout_entries es 0), <- (layout_entries es' 0). now rewrite S2.
Qed.

Theorem torn_file_determines_records es es' e e' p q p' q' :
  Forall wf_entry es -> Forall wf_entry es' -> wf_entry e -> wf_entry e' -> q <> [] -> q' <> [] ->
  enc_entry e = p ++ q -> enc_entry e' = p' ++ q' ->
  file_bytes es ++ p = file_bytes es' ++ p' -> es = es' /\ p = p'.
Proof.
  intros H H' He He' Hq Hq' E E' Eb.
  pose proof (scan_torn_file es e p q H He Hq E) as S1. pose proof (scan_torn_file es' e' p' q' H' He' Hq' E') as S2.
  rewrite Eb in S1. rewrite S1 in S2. injection S2 as S2.
  assert (Hes : es = es') by (rewrite <- (layout_entries es 0), <- (layout_entries es' 0); now rewrite S2).
  split; [exact Hes|]. subst es'. now apply app_inv_head in Eb.
Qed.
