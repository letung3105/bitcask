(* Store/Theorems.v — the engine against the map specification, over whole scripts.  A step, and so a
   script, whose merges are given a valid iteration order ([run_ready]) keeps [Inv], answers what
   [spec_step] answers and ends at the specification's map ([step_refines], [run_refines]).  From
   these: every reachable state satisfies [Inv], the counters and the index are exact, no step
   returns an error or a panic, and reopening, with or without hint files, changes no key. *)
From BC Require Import Store.Engine Store.Log Store.Step Store.Cons Store.Inv Store.Refine Store.MergeLemmas Store.Merge Store.Sizes.
Open Scope N_scope.

Definition op_ready (c : cfg) (s : st) (o : op) : Prop :=
  match o with OMerge ord => merge_ready c s ord | _ => True end.

Lemma write_ready c s o : is_write o -> op_ready c s o.
Proof. destruct o; intros []; exact I. Qed.

Theorem step_refines c s o : Inv s -> op_ready c s o ->
  let '(s', r, _) := step c s o in
  Inv s' /\ r = snd (spec_step (abs s) o) /\ forall k, abs s' k = fst (spec_step (abs s) o) k.
Proof.
  intros HI Hr. destruct o as [k v|k|k|ord| |t0]; cbn [op_ready] in Hr; cbn [step spec_step fst snd].
  - destruct (put_ok c s k v HI) as (s' & t & pos & Hp & HI' & Hlog & _). rewrite Hp.
    split; [exact HI'|]. split; [reflexivity|exact (abs_snoc s s' _ _ _ Hlog)].
  - rewrite (get_abs s k HI). auto.
  - destruct (delete_ok c s k HI) as (s' & t & pos & Hp & HI' & Hlog & _). rewrite Hp.
    split; [exact HI'|]. split; [reflexivity|exact (abs_snoc s s' _ _ _ Hlog)].
  - destruct (merge_ok c s ord HI Hr) as (s' & t & Hm & HI' & Habs & _). rewrite Hm. auto.
  - destruct (reopen_ok s HI) as (s' & t & Hro & HI' & Hlog & _). rewrite Hro.
    split; [exact HI'|]. split; [reflexivity|exact (abs_log s s' Hlog)].
  - split; [exact (Inv_ext s _ t0 HI)|]. split; [reflexivity|intros; reflexivity].
Qed.

Fixpoint run_ready (c : cfg) (s : st) (ops : list op) : Prop :=
  match ops with
  | [] => True
  | o :: ops' => op_ready c s o /\ run_ready c (fst (fst (step c s o))) ops'
  end.

Lemma run_app c : forall a s b, run c s (a ++ b) =
  let '(s1, r1, t1) := run c s a in let '(s2, r2, t2) := run c s1 b in (s2, r1 ++ r2, t1 ++ t2).
Proof.
  induction a as [|o a IH]; intros s b; cbn [app run].
  - destruct (run c s b) as [[s2 r2] t2]. reflexivity.
  - destruct (step c s o) as [[s1 r] t]. rewrite IH. destruct (run c s1 a) as [[s2 r2] t2]. destruct (run c s2 b) as [[s3 r3] t3].
    rewrite app_assoc. reflexivity.
Qed.

Lemma run_ready_app c : forall a s b, run_ready c s (a ++ b) -> run_ready c s a /\ run_ready c (fst (fst (run c s a))) b.
Proof.
  induction a as [|o a IH]; intros s b H; cbn [app run_ready run] in *; [split; [exact I|exact H]|].
  destruct H as [H1 H2]. destruct (step c s o) as [[s1 r] t] eqn:Es. cbn [fst] in *. destruct (IH s1 b H2) as [Ha Hb].
  destruct (run c s1 a) as [[s2 r2] t2]. cbn [fst] in *. auto.
Qed.

Fixpoint spec_run (m : mapst) (ops : list op) : list out :=
  match ops with
  | [] => []
  | o :: ops' => snd (spec_step m o) :: spec_run (fst (spec_step m o)) ops'
  end.
Fixpoint spec_final (m : mapst) (ops : list op) : mapst :=
  match ops with
  | [] => m
  | o :: ops' => spec_final (fst (spec_step m o)) ops'
  end.

Lemma spec_step_ext m1 m2 o : (forall k, m1 k = m2 k) ->
  snd (spec_step m1 o) = snd (spec_step m2 o) /\ forall k, fst (spec_step m1 o) k = fst (spec_step m2 o) k.
Proof.
  intros H. destruct o; cbn [spec_step fst snd]; try (split; [reflexivity|exact H]).
  - split; [reflexivity|]. intros k'. destruct (beq k' k); auto.
  - split; [rewrite H; reflexivity|exact H].
  - split; [rewrite H; reflexivity|]. intros k'. destruct (beq k' k); auto.
Qed.

Lemma spec_run_ext ops : forall m1 m2, (forall k, m1 k = m2 k) ->
  spec_run m1 ops = spec_run m2 ops /\ forall k, spec_final m1 ops k = spec_final m2 ops k.
Proof.
  induction ops as [|o ops IH]; intros m1 m2 H; cbn [spec_run spec_final]; [auto|].
  destruct (spec_step_ext m1 m2 o H) as [E1 E2]. rewrite E1.
  destruct (IH _ _ E2) as [E3 E4]. rewrite E3. auto.
Qed.

Theorem run_refines c : forall ops s, Inv s -> run_ready c s ops ->
  let '(s', rs, _) := run c s ops in
  Inv s' /\ rs = spec_run (abs s) ops /\ forall k, abs s' k = spec_final (abs s) ops k.
Proof.
  induction ops as [|o ops IH]; intros s HI Hr; cbn [run spec_run spec_final]; [auto|].
  destruct Hr as [Hr1 Hr2]. pose proof (step_refines c s o HI Hr1) as Hstep.
  destruct (step c s o) as [[s1 r] t] eqn:Es. cbn [fst] in Hr2. destruct Hstep as (HI1 & Hr & Habs).
  specialize (IH s1 HI1 Hr2). destruct (run c s1 ops) as [[s2 rs] ts]. destruct IH as (HI2 & Hrs & Hfin).
  destruct (spec_run_ext ops (abs s1) (fst (spec_step (abs s) o)) Habs) as [E1 E2].
  split; [exact HI2|]. split; [rewrite Hr, Hrs, E1; reflexivity|]. intros k. rewrite Hfin. apply E2.
Qed.

(* [normal]: neither an error nor a panic.  The specification answers nothing else; that the engine
   does not either is [no_underflow]. *)
Definition normal (o : out) : bool := match o with VErr _ | VPanic _ => false | _ => true end.
Lemma spec_run_normal ops : forall m, forallb normal (spec_run m ops) = true.
Proof. induction ops as [|o ops IH]; intros m; [reflexivity|]. cbn [spec_run forallb]. rewrite IH. destruct o; reflexivity. Qed.

Definition reachable (c : cfg) (s : st) : Prop :=
  exists ops, run_ready c init ops /\ s = fst (fst (run c init ops)).

Theorem reachable_inv c s : reachable c s -> Inv s.
Proof.
  intros (ops & Hr & ->). pose proof (run_refines c ops init (proj1 init_inv) Hr) as H.
  destruct (run c init ops) as [[s' rs] ts]. tauto.
Qed.

Lemma run_inv c ops : run_ready c init ops -> Inv (fst (fst (run c init ops))).
Proof. intros Hr. apply (reachable_inv c). exists ops. split; [exact Hr|reflexivity]. Qed.

(* C19: the counters are the ground truth of the files *)
Theorem counters_exact s : Inv s -> forall g,
  live (sget0 (s_stats s) g) = nlive (slog s) (s_idx s) g /\
  dead (sget0 (s_stats s) g) = ndead (slog s) (s_idx s) g /\
  dead_bytes (sget0 (s_stats s) g) = bdead (slog s) (s_idx s) g /\
  (sget (s_stats s) g = None <-> has_file (slog s) g = false).
Proof.
  intros HI g. destruct (Inv_cons s HI) as (_ & C2 & C3). destruct (C2 g eq_refl) as (A & B & C).
  repeat split; auto; apply C3; reflexivity.
Qed.

Theorem index_exact s : Inv s -> forall k, iget (s_idx s) k = lastloc (slog s) k None.
Proof. intros HI. apply (Inv_cons s HI). Qed.

(* the overwrite arithmetic never underflows: every step of a ready script returns normally *)
Theorem no_underflow c s o : Inv s -> op_ready c s o -> normal (snd (fst (step c s o))) = true.
Proof.
  intros HI Hr. pose proof (step_refines c s o HI Hr) as H. destruct (step c s o) as [[s' r] t]. cbn [fst snd].
  destruct H as (_ & -> & _). destruct o; reflexivity.
Qed.

(* C02: any number of reopen cycles changes no key *)
Fixpoint reopens (s : st) (n : nat) : st :=
  match n with O => s | S n' => reopens (fst (fst (step (mkCfg 0 false 0 1 0 0) s OReopen))) n' end.

Theorem reopen_preserves : forall n s, Inv s -> Inv (reopens s n) /\ forall k, abs (reopens s n) k = abs s k.
Proof.
  induction n as [|n IH]; intros s HI; cbn [reopens]; [auto|].
  pose proof (step_refines (mkCfg 0 false 0 1 0 0) s OReopen HI I) as H.
  destruct (step _ s OReopen) as [[s1 r] t]. cbn [fst]. destruct H as (HI1 & _ & Habs). cbn [spec_step fst] in Habs.
  destruct (IH s1 HI1) as [HI2 H2]. split; [exact HI2|]. intros k. rewrite H2. apply Habs.
Qed.

(* the reopened store also has the same index, position by position (recovery is exact) *)
Theorem reopen_index s : Inv s -> exists s' t, reopen s = ROk (s', tt, t) /\ Inv s' /\
  (forall k, iget (s_idx s') k = iget (s_idx s) k) /\
  (forall g, sget0 (s_stats s') g = sget0 (s_stats s) g) /\ slog s' = slog s.
Proof.
  intros HI. destruct (reopen_ok s HI) as (s' & t & Hr & HI' & Hlog & _). exists s', t. split; [exact Hr|]. split; [exact HI'|].
  pose proof (Inv_cons s' HI') as HC'. rewrite Hlog in HC'. destruct (cons_fun _ _ _ _ _ HC' (Inv_cons s HI)). auto.
Qed.

(* C12: hint files are only an accelerator *)
Definition drop_hints (d : dir) : dir := map (fun '(id, f) => (id, mkFile (d_data f) None)) d.

Lemma log_drop_hints d : log_of_dir (drop_hints d) = log_of_dir d.
Proof. induction d as [|[i f] d IH]; cbn [drop_hints map log_of_dir d_data]; [reflexivity|]. unfold drop_hints in IH. rewrite IH. reflexivity. Qed.

Theorem hints_optional s clk : Inv s ->
  exists s1 t1 s2 t2, open (s_dir s) clk = ROk (s1, tt, t1) /\ open (drop_hints (s_dir s)) clk = ROk (s2, tt, t2) /\
    Inv s1 /\ Inv s2 /\ (forall k, abs s1 k = abs s k) /\ (forall k, abs s2 k = abs s k) /\
    (forall k, iget (s_idx s2) k = iget (s_idx s1) k).
Proof.
  intros HI. pose proof (Inv_sorted s HI) as Hs.
  destruct (open_any (s_dir s) clk Hs (Inv_hints s HI)) as (s1 & t1 & H1 & HI1 & Hl1 & _).
  destruct (open_any (drop_hints (s_dir s)) clk) as (s2 & t2 & H2 & HI2 & Hl2 & _).
  { apply (sorted_fst (s_dir s)); [|exact Hs]. unfold drop_hints. rewrite map_map. apply map_ext. intros [j h]. reflexivity. }
  { intros id f Hin. apply in_map_iff in Hin as ([j h] & E & _). inversion E; subst. exact I. }
  rewrite log_drop_hints in Hl2. exists s1, t1, s2, t2.
  split; [exact H1|]. split; [exact H2|]. split; [exact HI1|]. split; [exact HI2|]. split; [|split].
  - exact (abs_log s s1 Hl1).
  - exact (abs_log s s2 Hl2).
  - intros k. rewrite (index_exact s2 HI2), (index_exact s1 HI1), Hl1, Hl2. reflexivity.
Qed.
