(* Store/Refine.v — the map specification [spec_step] (Store/Theorems.v states the refinement against
   it), and the operations one by one under the invariant.  A put and a delete append one record
   and keep [Inv] ([put_ok], [delete_ok], [step_write]).  Opening any sorted directory whose hint
   files are sound gives an invariant state with the directory's log ([open_any]; the lemmas on [nmax]
   and [next_active] serve it); [reopen_ok] and [init_inv] are instances. *)
From BC Require Import Store.Engine Store.Log Store.Step Store.Cons Store.Inv.
Open Scope N_scope.

Definition mapst := bytes -> option bytes.
Definition spec_step (m : mapst) (o : op) : mapst * out :=
  match o with
  | OSet k v => ((fun k' => if beq k' k then Some v else m k'), VUnit)
  | OGet k => (m, VVal (m k))
  | ODel k => ((fun k' => if beq k' k then None else m k'), VBool (match m k with Some _ => true | None => false end))
  | OMerge _ => (m, VUnit)
  | OReopen => (m, VUnit)
  | OClock _ => (m, VUnit)
  end.

Lemma append_ok c s k v : Inv s ->
  exists s1 l t x', write c s k v = ROk (s1, l, t) /\
    let en := (s_active s, l_pos l, mkEntry (s_clock s) k v) in
    l = loc_of en /\ s_idx s1 = s_idx s /\
    match iget (s_idx s) k with Some prev => account_overwrite (s_stats s1) prev | None => Some (s_stats s1) end = Some x' /\
    Inv (upd_stats (upd_idx s1 (idx_step (s_idx s) en)) x') /\ slog s1 = slog s ++ [en] /\ s_clock s1 = (s_clock s + 1)%Z.
Proof.
  intros HI.
  destruct (write_ok c s k v HI) as (s1 & l & t & Hw & Hl & Hlog & Hwf & Hi1 & Hx1 & Hs1 & Hle1 & Hh1 & Hst1 & Ha1 & Hfa1 & Hc1).
  cbv zeta in *. destruct (step_full _ _ _ _ _ _ Hwf (Inv_cons s HI)) as (x' & Hss & HC').
  unfold stats_step in Hss. cbn [e_key] in Hss. rewrite <- Hx1 in Hss.
  exists s1, l, t, x'. split; [exact Hw|]. split; [exact Hl|]. split; [exact Hi1|]. split; [exact Hss|].
  split; [|split; [exact Hlog|exact Hc1]]. apply Inv_iff. split; [unfold shape_ok, dir_ok; auto 10|].
  unfold slog. cbn [upd_stats upd_idx s_dir s_idx s_stats]. fold (slog s1). rewrite Hlog. exact HC'.
Qed.

Theorem put_ok c s k v : Inv s ->
  exists s' t pos, put c s k v = ROk (s', tt, t) /\ Inv s' /\
    slog s' = slog s ++ [(s_active s, pos, mkEntry (s_clock s) k (Some v))] /\ s_clock s' = (s_clock s + 1)%Z.
Proof.
  intros HI. destruct (append_ok c s k (Some v) HI) as (s1 & l & t & x' & Hw & Hl & Hi1 & Hacc & HI' & Hlog & Hc).
  cbv zeta in *. cbn [idx_step e_val e_key] in HI'. rewrite <- Hl in HI'.
  exists (upd_stats (upd_idx s1 (aset (s_idx s) k l)) x'), t, (l_pos l).
  split; [|split; [exact HI'|split; [exact Hlog|exact Hc]]].
  unfold put. rewrite Hw, Hi1. destruct (iget (s_idx s) k) as [prev|]; [rewrite Hacc|injection Hacc as <-]; reflexivity.
Qed.

Lemma abs_iget s k : Inv s -> (abs s k = None <-> iget (s_idx s) k = None).
Proof. intros HI. rewrite (proj1 (Inv_cons s HI)). symmetry. apply lastloc_none_iff. Qed.

Theorem delete_ok c s k : Inv s ->
  exists s' t pos, delete c s k = ROk (s', match abs s k with Some _ => true | None => false end, t) /\ Inv s' /\
    slog s' = slog s ++ [(s_active s, pos, mkEntry (s_clock s) k None)] /\ s_clock s' = (s_clock s + 1)%Z.
Proof.
  intros HI. destruct (append_ok c s k None HI) as (s1 & l & t & x' & Hw & Hl & Hi1 & Hacc & HI' & Hlog & Hc).
  cbv zeta in *. cbn [idx_step e_val e_key] in HI'.
  unfold delete. rewrite Hw, Hi1. pose proof (abs_iget s k HI) as Habs.
  destruct (iget (s_idx s) k) as [prev|] eqn:Ep.
  - destruct (abs s k); [|destruct Habs as [Habs _]; discriminate Habs; reflexivity]. rewrite Hacc. eexists _, t, (l_pos l).
    split; [reflexivity|]. split; [exact HI'|]. split; [exact Hlog|exact Hc].
  - (* no entry to remove: the state is the one the write left *)
    rewrite (proj2 Habs eq_refl). injection Hacc as <-. exists s1, t, (l_pos l).
    split; [reflexivity|]. split; [|split; [exact Hlog|exact Hc]]. apply Inv_iff in HI' as [Hsh HC]. apply Inv_iff. split; [exact Hsh|].
    eapply cons_ex_ext; [rewrite Hi1; exact (adel_absent _ _ Ep)|reflexivity|exact HC].
Qed.

Definition is_write (o : op) : Prop := match o with OSet _ _ | ODel _ => True | _ => False end.
Definition is_merge (o : op) : bool := match o with OMerge _ => true | _ => false end.

Lemma step_write c s o : Inv s -> is_write o ->
  let '(s', _, t) := step c s o in
  exists k v s1 l, write c s k v = ROk (s1, l, t) /\
    s_dir s' = s_dir s1 /\ s_active s' = s_active s1 /\ s_last s' = s_last s1 /\ s_written s' = s_written s1.
Proof.
  intros HI Ho. destruct o as [k v|k|k|ord| |tm]; try contradiction; cbn [step].
  - destruct (append_ok c s k (Some v) HI) as (s1 & l & t & x' & Hw & _ & Hi1 & Hacc & _).
    unfold put. rewrite Hw, Hi1. destruct (iget (s_idx s) k); [rewrite Hacc|]; exists k, (Some v), s1, l; auto.
  - destruct (append_ok c s k None HI) as (s1 & l & t & x' & Hw & _ & Hi1 & Hacc & _).
    unfold delete. rewrite Hw, Hi1. destruct (iget (s_idx s) k); [rewrite Hacc|]; exists k, None, s1, l; auto.
Qed.

Lemma nmax_ub : forall l m, nmax l = Some m -> Forall (fun j => j <= m) l.
Proof.
  induction l as [|a l IH]; intros m H; [constructor|]. cbn [nmax] in H.
  destruct (nmax l) as [m'|] eqn:E.
  - inversion H; subst. constructor; [lia|]. specialize (IH m' eq_refl). eapply Forall_impl; [|exact IH]. cbn. intros; lia.
  - inversion H; subst. destruct l; [constructor; [lia|constructor]|]. cbn in E. destruct (nmax l); discriminate.
Qed.

Lemma nmax_in : forall l m, nmax l = Some m -> In m l.
Proof.
  induction l as [|a l IH]; intros m H; cbn [nmax] in H; [discriminate|]. destruct (nmax l) as [m'|] eqn:E; inversion H; subst.
  - destruct (N.max_spec a m') as [[_ ->]|[_ ->]]; [right; apply IH; reflexivity|left; reflexivity].
  - left. reflexivity.
Qed.

Lemma nmax_none l : nmax l = None -> l = [].
Proof. destruct l as [|a l]; [reflexivity|]. cbn [nmax]. destruct (nmax l); discriminate. Qed.

Lemma next_active_above d : forall j g, In (j, g) d -> j < next_active d.
Proof.
  unfold next_active. intros j g Hin. apply (in_map fst) in Hin. destruct (nmax (map fst d)) as [m|] eqn:Em.
  - apply nmax_ub in Em. rewrite Forall_forall in Em. specialize (Em _ Hin). cbn [fst] in Em. lia.
  - rewrite (nmax_none _ Em) in Hin. destruct Hin.
Qed.

Lemma next_active_last d m f : ids_le d m -> In (m, f) d -> next_active d = m + 1.
Proof.
  unfold next_active. intros Hle Hin. apply (in_map fst) in Hin. destruct (nmax (map fst d)) as [mx|] eqn:Em.
  - pose proof (nmax_ub _ _ Em) as Hub. rewrite Forall_forall in Hub. specialize (Hub _ Hin). cbn [fst] in Hub.
    apply nmax_in in Em. apply (proj1 (ids_le_iff _ _) Hle) in Em. f_equal. lia.
  - rewrite (nmax_none _ Em) in Hin. destruct Hin.
Qed.

Lemma cons_nil : cons [] [] [].
Proof. repeat split; intros; reflexivity. Qed.

Lemma open_any d clk : sorted d -> (forall id f, In (id, f) d -> hints_ok f) ->
  exists s' t, open d clk = ROk (s', tt, t) /\ Inv s' /\ slog s' = log_of_dir d /\ s_clock s' = clk.
Proof.
  intros Hs Hh.
  destruct (rebuild_cons d [] [] [] (wfL_log_of_dir d Hs) Hh cons_nil) as (i' & x' & Hr & HC). cbn [app] in HC.
  destruct (fresh_active_shape d (next_active d) i' x' 0 clk Hs (next_active_above d) Hh) as (_ & Hset & Hsh).
  unfold open. change (@nil (bytes * option loc), @nil (N * option cnt)) with (([], []) : index * stats_t) in Hr.
  rewrite Hr, Hset. eexists _, _. split; [reflexivity|]. unfold slog. cbn [s_dir s_clock]. rewrite log_of_dir_app_empty.
  split; [|split; reflexivity]. apply Inv_iff. split; [exact Hsh|]. unfold slog. cbn [s_dir s_idx s_stats].
  rewrite log_of_dir_app_empty. exact HC.
Qed.

Theorem open_ok d clk : sorted d -> d <> [] -> (forall id f, In (id, f) d -> hints_ok f) ->
  exists s' t, open d clk = ROk (s', tt, t) /\ Inv s' /\ slog s' = log_of_dir d /\ s_clock s' = clk.
Proof. intros Hs _. apply open_any. exact Hs. Qed.

Theorem reopen_ok s : Inv s -> exists s' t, reopen s = ROk (s', tt, t) /\ Inv s' /\ slog s' = slog s /\ s_clock s' = s_clock s.
Proof. intros HI. apply open_any; [apply Inv_sorted|apply Inv_hints]; exact HI. Qed.

Lemma reopen_shape s : Inv s ->
  next_active (s_dir s) = s_last s + 1 /\ dir_get (s_dir s) (s_last s + 1) = None /\
  exists i x, rebuild_files (s_dir s) ([], []) = Some (i, x) /\
    reopen s = ROk (mkSt (s_dir s ++ [(s_last s + 1, empty_file)]) i x (s_last s + 1) 0 (s_last s + 1) false (s_clock s),
                    tt, [SCreate (FData (s_last s + 1))]).
Proof.
  intros HI. pose proof (Inv_dir_ok s HI) as (_ & Hle & _). destruct (Inv_active s HI) as (fa & Hfa & _).
  apply dir_get_In in Hfa. rewrite (Inv_last s HI) in Hfa.
  assert (Hn : dir_get (s_dir s) (s_last s + 1) = None) by (apply (ids_le_get_none _ _ _ Hle); lia).
  split; [exact (next_active_last _ _ _ Hle Hfa)|]. split; [exact Hn|].
  destruct (reopen_ok s HI) as (s' & t & Ho & _). unfold reopen, open in *.
  destruct (rebuild_files (s_dir s) ([], [])) as [[i x]|]; [|discriminate]. exists i, x. split; [reflexivity|].
  rewrite (next_active_last _ _ _ Hle Hfa), (dir_set_new _ _ _ Hn). reflexivity.
Qed.

Lemma open_appended s e clk : Inv s ->
  exists d2 pos s' t, append_data (s_dir s) (s_active s) e = Some (d2, pos) /\ open d2 clk = ROk (s', tt, t) /\ Inv s' /\
    forall k, abs s' k = if beq k (e_key e) then e_val e else abs s k.
Proof.
  intros HI. destruct (inv_append s e HI) as (d2 & pos & Ha & Hlog & (Hs' & _ & Hh') & _).
  destruct (open_any d2 clk Hs' Hh') as (s' & t & Ho & HI' & Hl & _).
  exists d2, pos, s', t. split; [exact Ha|]. split; [exact Ho|]. split; [exact HI'|].
  apply (abs_snoc s s' (s_active s) pos). rewrite Hl. exact Hlog.
Qed.

Lemma init_inv : Inv init /\ slog init = [].
Proof.
  unfold init. destruct (open_any [] 1%Z I) as (s' & t & -> & HI & Hlog & _); [intros id f []|]. auto.
Qed.

Lemma abs_init k : abs init k = None.
Proof. unfold abs. rewrite (proj2 init_inv). reflexivity. Qed.
