(* Store/FaultBytes.v — the bytes on disk while the process goes on after a failed append (C20).
   A failed append may leave a partly written record [p] at the end of data file [a].  That file is never written
   again (the next write replaces the active file first), so the rest of the run happens beside it: executing the
   system calls of ANY ready script from the repaired state on the file system WITH the junk gives, file by file, the
   model's records — and [p] still at the end of file [a], if that file has not been merged away.  Hence the
   directory then reads as the model's directory ([reads_as]: a torn tail is end-of-input), and a restart at that
   point opens to the map the running process holds: the in-process half (Store/FaultContinue.v) and the restart
   half meet. *)
From BC Require Import Base.Bytes Store.Engine Store.Inv Store.Refine Store.Theorems Store.Trace Store.Crash Store.CrashScript Store.Discipline
  Store.FaultContinue.
Open Scope N_scope.

(* the file system [fj] is [fc] with [p] behind data file [a] (if it exists) *)
Definition junked (a : N) (p : bytes) (fj fc : fs) : Prop :=
  forall g, fj g = match g with
                   | FData i => if i =? a then option_map (fun b => b ++ p) (fc g) else fc g
                   | FHint _ => fc g
                   end.

(* a call that neither creates nor extends data file [a] *)
Definition beside (a : N) (c : syscall) : Prop :=
  match c with SCreate (FData i) | SWrite (FData i) _ => i <> a | _ => True end.

Lemma fn_eqb_false g f : g <> f -> fn_eqb g f = false.
Proof. intros H. destruct (fn_eqb_spec g f); [contradiction|reflexivity]. Qed.

(* what the junk makes of the content [v] of file [g] *)
Definition junk (a : N) (p : bytes) (g : fname) (v : option bytes) : option bytes :=
  match g with FData i => if i =? a then option_map (fun b => b ++ p) v else v | FHint _ => v end.

Lemma junk_none a p g : junk a p g None = None.
Proof. destruct g as [i|i]; cbn [junk]; [destruct (i =? a)|]; reflexivity. Qed.

Lemma junk_some a p g x : exists y, junk a p g (Some x) = Some y.
Proof. destruct g as [i|i]; cbn [junk]; [destruct (i =? a)|]; eexists; reflexivity. Qed.

Lemma junk_beside a p g v : g <> FData a -> junk a p g v = v.
Proof. intros H. destruct g as [i|i]; cbn [junk]; [destruct (N.eqb_spec i a); [congruence|]|]; reflexivity. Qed.

Lemma junked_fupd a p fj fc g v v' : junked a p fj fc -> junk a p g v = v' -> junked a p (fupd fj g v') (fupd fc g v).
Proof.
  intros HJ Hv g'. unfold fupd. destruct (fn_eqb g' g) eqn:E; [|exact (HJ g')]. apply fn_eqb_eq in E. subst g' v'. reflexivity.
Qed.

Lemma junked_step a p fj fc c fc' : junked a p fj fc -> beside a c -> fs_step fc c = Some fc' ->
  exists fj', fs_step fj c = Some fj' /\ junked a p fj' fc'.
Proof.
  intros HJ Hb Hs. destruct c as [f|f b|f|f]; cbn [fs_step] in *; rewrite (HJ f : fj f = junk a p f (fc f)).
  - destruct (fc f); [discriminate|]. injection Hs as <-. rewrite junk_none. eexists. split; [reflexivity|].
    apply junked_fupd; [exact HJ|]. apply junk_beside. intros ->. exact (Hb eq_refl).
  - destruct (fc f) as [x|]; [|discriminate]. injection Hs as <-.
    assert (Hbf : f <> FData a) by (intros ->; exact (Hb eq_refl)).
    rewrite (junk_beside a p f _ Hbf). eexists. split; [reflexivity|]. apply junked_fupd; [exact HJ|apply junk_beside; exact Hbf].
  - destruct (fc f) as [x|]; [|discriminate]. injection Hs as <-. destruct (junk_some a p f x) as (y & ->).
    exists fj. split; [reflexivity|exact HJ].
  - destruct (fc f) as [x|]; [|discriminate]. injection Hs as <-. destruct (junk_some a p f x) as (y & ->).
    eexists. split; [reflexivity|]. apply junked_fupd; [exact HJ|apply junk_none].
Qed.

Lemma junked_run a p : forall t fj fc fc', junked a p fj fc -> Forall (beside a) t -> fs_run fc t = Some fc' ->
  exists fj', fs_run fj t = Some fj' /\ junked a p fj' fc'.
Proof.
  induction t as [|c t IH]; intros fj fc fc' HJ Hb Hr; cbn [fs_run] in *.
  - injection Hr as <-. exists fj. split; [reflexivity|exact HJ].
  - inversion Hb as [|? ? Hc Ht]; subst. destruct (fs_step fc c) as [fc1|] eqn:Es; [|discriminate].
    destruct (junked_step a p fj fc c fc1 HJ Hc Es) as (fj1 & Es' & HJ1). rewrite Es'. eapply IH; eassumption.
Qed.

(* the monitor only lets the newest data file grow: a trace it accepts from a state whose current file is newer than
   [a] never touches data file [a] *)
Lemma accepted_beside maxsize a : forall t f mx cur st', a < cur -> cur <= mx ->
  frun maxsize (f, Some mx, Some cur) t = Some st' -> Forall (beside a) t.
Proof.
  induction t as [|c t IH]; intros f mx cur st' Hac Hcm Hr; [constructor|]. cbn [frun] in Hr.
  destruct (fstep maxsize (f, Some mx, Some cur) c) as [[[f1 mx1] cur1]|] eqn:Es; [|discriminate].
  destruct (fstep_inv _ _ _ _ _ _ _ _ Es) as [_ Hc].
  assert (H : beside a c /\ exists mx' cur', mx1 = Some mx' /\ cur1 = Some cur' /\ a < cur' /\ cur' <= mx').
  { destruct c as [[i|i]|[i|i] b|g|g]; cbn [beside gt_max is_cur fid] in *.
    - destruct Hc as (Hg & -> & ->). apply N.ltb_lt in Hg. split; [lia|]. exists i, i. repeat split; lia.
    - destruct Hc as (_ & -> & ->). eauto 7.
    - destruct Hc as (Hg & -> & ->). apply N.eqb_eq in Hg. split; [lia|]. eauto 6.
    - destruct Hc as (_ & -> & ->). eauto 7.
    - destruct Hc as [-> ->]. eauto 7.
    - destruct Hc as [-> ->]. eauto 7. }
  destruct H as (Hb & mx' & cur' & -> & -> & H1 & H2). constructor; [exact Hb|]. eapply IH; eassumption.
Qed.

(* The run after the repair.  [h]: an invariant state whose active file is newer than [a] (the state right after the
   next write replaced the active file).  [fc]: the clean file system of h's directory; [fj]: the same with [p] behind
   file [a]. *)
Theorem run_beside_junk c ops h fc fj a p :
  Inv h -> a < s_active h -> run_ready c h ops -> FS c h fc -> junked a p fj fc ->
  let '(h', _, t) := run c h ops in
  exists fj' fc', fs_run fj t = Some fj' /\ rep fc' (s_dir h') /\ junked a p fj' fc'.
Proof.
  intros HI Ha Hready HFS HJ. pose proof (run_forward c ops h fc HI Hready HFS) as Hacc.
  destruct (run c h ops) as [[h' rs] t]. destruct Hacc as (fc' & Hacc & Hrep' & _).
  assert (Hle : s_active h <= s_last h) by (rewrite (Inv_last h HI); apply N.le_refl).
  destruct (junked_run a p t fj fc fc' HJ (accepted_beside _ a _ _ _ _ _ Ha Hle Hacc) (frun_fs _ _ _ _ _ _ _ _ Hacc)) as (fj' & Hrun' & HJ').
  exists fj', fc'. auto.
Qed.

Lemma junked_rep a p fj fc d : rep fc d -> junked a p fj fc -> rep_torn fj d (a, p).
Proof.
  intros Hrep HJ id. rewrite (HJ (FData id)), (HJ (FHint id)). pose proof (proj1 (rep_iff fc d) Hrep id) as H. cbn [fst snd].
  destruct (dir_get d id) as [f|]; destruct H as [-> ->]; destruct (id =? a); cbn [option_map]; rewrite ?app_nil_r; auto.
Qed.

(* The two halves meet.  A put or delete issued in invariant state s fails in its append and leaves the torn record [p]
   behind the active file; the process goes on: the next put or delete [o] replaces the active file, and any ready script
   follows.  Then (1) every answer is the map's answer with the failed operation not applied (Store/FaultContinue.v), and
   (2) what is on disk at the end reads as the model's directory and opens to exactly the map the process holds: a restart
   at that point loses nothing and resurrects nothing. *)
Theorem fault_continue_restart c s clk o ops : is_write o -> forall fc fj p,
  Inv s -> rep fc (s_dir s) -> junked (s_active s) p fj fc -> torn_entry p ->
  let x := after_failed_append s clk in
  run_ready c (fst (fst (step c x o))) ops ->
  let '(x', rs, t) := run c x (o :: ops) in
  Inv x' /\ rs = spec_run (abs s) (o :: ops) /\
  exists fj', fs_run fj t = Some fj' /\ img_ok fj' (abs x').
Proof.
  intros Ho fc fj p HI Hrep HJ Ht x Hready.
  assert (HF : faulted x) by exact (failed_write_faulted s _ clk HI (N.le_refl _)).
  destruct (step_write_faulted c x o HF Ho) as (h & t1 & Hn & HIh & Habh & Hstep).
  (* the repair: one create *)
  destruct (new_active_inv x h t1 Hn) as (Hnone & Hh & ->). cbn [x after_failed_append s_last s_dir s_idx s_stats s_clock] in Hnone, Hh, Hstep.
  destruct (rep_after_create fc (s_dir s) (s_last s + 1) Hrep Hnone) as [Hcr _].
  assert (Hbs : beside (s_active s) (SCreate (FData (s_last s + 1)))) by (cbn [beside]; rewrite (Inv_last s HI); lia).
  destruct (junked_step (s_active s) p fj fc _ _ HJ Hbs Hcr) as (fj1 & Hcr' & HJ1).
  assert (HFS : FS c h (fupd fc (FData (s_last s + 1)) (Some []))).
  { rewrite Hh. refine (proj2 (create_forward c fc (s_dir s) (s_last s) None (s_last s + 1) _ Hrep Hnone (lt_next _) _ _ _ _)); reflexivity. }
  assert (Hact : s_active s < s_active h) by (rewrite Hh, (Inv_last s HI); apply lt_next).
  (* the rest of the run, from the repaired state *)
  assert (Hready' : run_ready c h (o :: ops)).
  { split; [exact (write_ready c h o Ho)|]. rewrite Hstep in Hready. destruct (step c h o) as [[s2 r2] t2]. exact Hready. }
  pose proof (run_refines c (o :: ops) h HIh Hready') as Href.
  pose proof (run_beside_junk c (o :: ops) h _ fj1 (s_active s) p HIh Hact Hready' HFS HJ1) as Hb.
  cbn [run] in *. rewrite Hstep. destruct (step c h o) as [[s2 r2] t2]. destruct (run c s2 ops) as [[x' rs] t].
  destruct Href as (HI' & Hrs & _). destruct Hb as (fj' & fc' & Hrj & Hrep' & HJ').
  split; [exact HI'|]. split; [rewrite Hrs; exact (proj1 (spec_run_ext (o :: ops) _ _ Habh))|].
  exists fj'. split; [cbn [app fs_run]; rewrite Hcr'; exact Hrj|].
  exists (s_dir x'). split; [exact (rep_torn_reads _ _ _ _ (junked_rep _ _ _ _ _ Hrep' HJ') Ht)|].
  exact (good_recovers _ _ (inv_good x' HI')).
Qed.
