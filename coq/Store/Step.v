(* Store/Step.v — one record appended at the end of the log: how the index and the counters must
   move to stay consistent.  Used by put, delete, the recovery scan and the merge loop alike. *)
From BC Require Import Store.Engine Store.Log.
Open Scope N_scope.

Definition idx_step (i : index) (en : lentry) : index :=
  let '(f, p, e) := en in
  match e_val e with
  | Some _ => aset i (e_key e) (loc_of en)
  | None => adel i (e_key e)
  end.

Definition key_of (en : lentry) : bytes := let '(_, _, e) := en in e_key e.
Definition is_value (en : lentry) : bool := let '(_, _, e) := en in match e_val e with Some _ => true | None => false end.

(* total size of the records of [L] in file [g] at offset [p] with key [k] *)
Fixpoint occb (L : list lentry) (g p : N) (k : bytes) : N :=
  match L with
  | [] => 0
  | en :: L' => (if at_pos g p en && beq k (key_of en) then esize en else 0) + occb L' g p k
  end.

Definition has_key (k : bytes) (L : list lentry) : bool := existsb (fun en => beq k (key_of en)) L.

Lemma has_key_split L k : has_key k L = true ->
  exists L1 f p e L2, L = L1 ++ (f, p, e) :: L2 /\ e_key e = k /\ has_key k L2 = false.
Proof.
  unfold has_key. induction L as [|[[f p] e] L IH]; cbn [existsb key_of]; [discriminate|].
  destruct (existsb _ L) eqn:E.
  - intros _. destruct (IH eq_refl) as (L1 & f' & p' & e' & L2 & -> & Hk & Hn).
    exists ((f, p, e) :: L1), f', p', e', L2. auto.
  - rewrite orb_false_r. intros Hk. apply beq_eq in Hk. exists [], f, p, e, L. auto.
Qed.

Lemma lastloc_no_key L k a : has_key k L = false -> lastloc L k a = a.
Proof.
  revert a. induction L as [|[[f p] e] L IH]; intros a; cbn [has_key existsb key_of lastloc]; [reflexivity|].
  intros H. apply orb_false_iff in H as [H1 H2]. rewrite H1. apply IH. exact H2.
Qed.
Lemma lastval_no_key L k a : has_key k L = false -> lastval L k a = a.
Proof.
  revert a. induction L as [|[[f p] e] L IH]; intros a; cbn [has_key existsb key_of lastval]; [reflexivity|].
  intros H. apply orb_false_iff in H as [H1 H2]. rewrite H1. apply IH. exact H2.
Qed.

Lemma lastloc_last L1 f p e L2 a : has_key (e_key e) L2 = false ->
  lastloc (L1 ++ (f, p, e) :: L2) (e_key e) a = match e_val e with Some _ => Some (loc_of (f, p, e)) | None => None end.
Proof. intros H. rewrite lastloc_app. cbn [lastloc]. rewrite beq_refl. apply lastloc_no_key. exact H. Qed.
Lemma lastval_last L1 f p e L2 a : has_key (e_key e) L2 = false ->
  lastval (L1 ++ (f, p, e) :: L2) (e_key e) a = e_val e.
Proof. intros H. rewrite lastval_app. cbn [lastval]. rewrite beq_refl. apply lastval_no_key. exact H. Qed.

Lemma lastloc_has_key L k a1 a2 : has_key k L = true -> lastloc L k a1 = lastloc L k a2.
Proof.
  intros H. destruct (has_key_split L k H) as (L1 & f & p & e & L2 & -> & <- & Hn).
  rewrite !lastloc_last by exact Hn. reflexivity.
Qed.
Lemma lastval_has_key L k a1 a2 : has_key k L = true -> lastval L k a1 = lastval L k a2.
Proof.
  intros H. destruct (has_key_split L k H) as (L1 & f & p & e & L2 & -> & <- & Hn).
  rewrite !lastval_last by exact Hn. reflexivity.
Qed.

Lemma lastloc_some L k l : lastloc L k None = Some l ->
  exists L1 f p e L2, L = L1 ++ (f, p, e) :: L2 /\ l = loc_of (f, p, e) /\ e_key e = k /\ e_val e <> None /\
                      has_key k L2 = false.
Proof.
  intros H. destruct (has_key k L) eqn:E; [|rewrite lastloc_no_key in H by exact E; discriminate].
  destruct (has_key_split L k E) as (L1 & f & p & e & L2 & -> & <- & Hn). rewrite lastloc_last in H by exact Hn.
  exists L1, f, p, e, L2. destruct (e_val e); [|discriminate]. injection H as <-. repeat split; [discriminate|exact Hn].
Qed.

Lemma lastloc_In L k l : lastloc L k None = Some l ->
  exists f p e, In (f, p, e) L /\ l = loc_of (f, p, e) /\ e_key e = k /\ e_val e <> None /\ lastval L k None = e_val e.
Proof.
  intros H. destruct (lastloc_some L k l H) as (L1 & f & p & e & L2 & -> & -> & <- & Hv & Hn).
  exists f, p, e. rewrite lastval_last by exact Hn. repeat split; [apply in_elt|exact Hv].
Qed.

Lemma lastloc_none_iff L k : lastloc L k None = None <-> lastval L k None = None.
Proof.
  destruct (has_key k L) eqn:E.
  - destruct (has_key_split L k E) as (L1 & f & p & e & L2 & -> & <- & Hn).
    rewrite lastloc_last, lastval_last by exact Hn. destruct (e_val e); split; congruence.
  - rewrite lastloc_no_key, lastval_no_key by exact E. tauto.
Qed.

Lemma is_live_at i f p e l : iget i (e_key e) = Some l -> is_live i (f, p, e) = at_pos (l_fid l) (l_pos l) (f, p, e).
Proof. intros H. cbn [is_live at_pos]. rewrite H, (N.eqb_sym f), (N.eqb_sym p). reflexivity. Qed.

Lemma is_live_none i f p e : iget i (e_key e) = None -> is_live i (f, p, e) = false.
Proof. intros H. cbn [is_live]. rewrite H. reflexivity. Qed.

Lemma is_live_new i en : is_live (idx_step i en) en = is_value en.
Proof.
  destruct en as [[f p] e]. cbn [idx_step is_live is_value].
  destruct (e_val e).
  - rewrite iget_aset, beq_refl. cbn [loc_of l_fid l_pos]. rewrite !N.eqb_refl. reflexivity.
  - rewrite iget_adel, beq_refl. reflexivity.
Qed.

Lemma idx_step_other i en k' : beq k' (key_of en) = false -> iget (idx_step i en) k' = iget i k'.
Proof.
  destruct en as [[f p] e]. cbn [idx_step key_of]. intros H.
  destruct (e_val e); [rewrite iget_aset|rewrite iget_adel]; rewrite H; reflexivity.
Qed.

Lemma idx_step_lastloc i L en :
  (forall k, iget i k = lastloc L k None) -> forall k, iget (idx_step i en) k = lastloc (L ++ [en]) k None.
Proof.
  intros H k. rewrite lastloc_app. destruct en as [[f p] e]. cbn [lastloc idx_step].
  destruct (e_val e); [rewrite iget_aset|rewrite iget_adel]; destruct (beq k (e_key e)); auto.
Qed.

(* Appending a record changes the liveness of one old record at most: the one the index held for
   its key, which dies.  The other records of that key were dead already, since positions are
   distinct, and stay so because the new position is fresh. *)
Lemma live_snoc (L : list lentry) i f p e : wfL (L ++ [(f, p, e)]) -> (forall k, iget i k = lastloc L k None) ->
  match iget i (e_key e) with
  | None => forall r, In r L -> is_live (idx_step i (f, p, e)) r = is_live i r
  | Some prev =>
    exists L1 f0 p0 e0 L2, L = L1 ++ (f0, p0, e0) :: L2 /\ prev = loc_of (f0, p0, e0) /\
      is_live i (f0, p0, e0) = true /\ is_live (idx_step i (f, p, e)) (f0, p0, e0) = false /\
      forall r, In r (L1 ++ L2) -> is_live (idx_step i (f, p, e)) r = is_live i r
  end.
Proof.
  intros Hw C1. apply wfL_app_one in Hw as [Hw Hfresh]. set (i' := idx_step i (f, p, e)).
  assert (Hdead : forall r, In r L -> beq (key_of r) (e_key e) = true -> is_live i' r = false).
  { intros [[f' p'] e'] Hin Hk. apply beq_eq in Hk. cbn [key_of] in Hk. subst i'. cbn [idx_step]. destruct (e_val e).
    - rewrite (is_live_at _ _ _ _ (loc_of (f, p, e))) by (rewrite iget_aset, Hk, beq_refl; reflexivity).
      exact (fresh_In _ _ _ _ Hfresh Hin).
    - apply is_live_none. rewrite iget_adel, Hk, beq_refl. reflexivity. }
  assert (Hsame : forall r, beq (key_of r) (e_key e) = false -> is_live i' r = is_live i r).
  { intros [[f' p'] e'] Hk. cbn [is_live]. subst i'. rewrite (idx_step_other i (f, p, e) (e_key e') Hk). reflexivity. }
  destruct (iget i (e_key e)) as [prev|] eqn:Ep.
  - rewrite C1 in Ep. destruct (lastloc_some _ _ _ Ep) as (L1 & f0 & p0 & e0 & L2 & -> & -> & Hk0 & _ & _).
    assert (Hi0 : forall f' p' e', e_key e' = e_key e -> is_live i (f', p', e') = at_pos f0 p0 (f', p', e')).
    { intros f' p' e' Hk. apply (is_live_at i f' p' e' (loc_of (f0, p0, e0))). rewrite Hk, C1. exact Ep. }
    exists L1, f0, p0, e0, L2. split; [reflexivity|]. split; [reflexivity|]. split; [|split].
    + rewrite (Hi0 _ _ _ Hk0). cbn [at_pos]. rewrite !N.eqb_refl. reflexivity.
    + apply Hdead; [apply in_elt|]. cbn [key_of]. rewrite Hk0. apply beq_refl.
    + intros r Hin. destruct (beq (key_of r) (e_key e)) eqn:Hk; [|apply Hsame; exact Hk].
      assert (Hin' : In r (L1 ++ (f0, p0, e0) :: L2)) by (apply in_app_or in Hin as [H|H]; apply in_or_app; [left|right; right]; exact H).
      rewrite (Hdead r Hin' Hk).
      destruct r as [[f' p'] e']. apply beq_eq in Hk. rewrite (Hi0 _ _ _ Hk). symmetry.
      apply (fresh_In f0 p0 (L1 ++ L2)); [|exact Hin]. apply wfL_mid in Hw. tauto.
  - intros r Hin. destruct (beq (key_of r) (e_key e)) eqn:Hk; [|apply Hsame; exact Hk].
    rewrite (Hdead r Hin Hk). destruct r as [[f' p'] e']. apply beq_eq in Hk. cbn [key_of] in Hk.
    symmetry. apply is_live_none. rewrite Hk. exact Ep.
Qed.

Lemma counts_agree L i1 i2 g : (forall r, In r L -> is_live i1 r = is_live i2 r) ->
  nlive L i1 g = nlive L i2 g /\ ndead L i1 g = ndead L i2 g /\ bdead L i1 g = bdead L i2 g.
Proof.
  induction L as [|en L IH]; intros H; cbn [nlive ndead bdead]; [auto|].
  destruct IH as (-> & -> & ->); [intros; apply H; right; assumption|]. rewrite (H en (or_introl eq_refl)). auto.
Qed.

Definition b2n (b : bool) : N := if b then 1 else 0.

(* the record the index holds for a key, seen from the counters of file [g] *)
Definition old_in (o : option loc) (g : N) : bool := match o with Some prev => l_fid prev =? g | None => false end.
Definition old_len (o : option loc) : N := match o with Some prev => l_len prev | None => 0 end.

Lemma counts_snoc (L : list lentry) i f p e :
  wfL (L ++ [(f, p, e)]) -> (forall k, iget i k = lastloc L k None) ->
  let en := (f, p, e) in let i' := idx_step i en in let o := iget i (e_key e) in
  forall g,
    nlive (L ++ [en]) i' g + b2n (old_in o g) = nlive L i g + b2n ((f =? g) && is_value en) /\
    ndead (L ++ [en]) i' g = ndead L i g + b2n (old_in o g) + b2n ((f =? g) && negb (is_value en)) /\
    bdead (L ++ [en]) i' g = bdead L i g + (if old_in o g then old_len o else 0) +
                             (if (f =? g) && negb (is_value en) then entry_size e else 0).
Proof.
  intros Hw C1 en i' o g. pose proof (live_snoc L i f p e Hw C1) as H. subst o i' en.
  rewrite nlive_app, ndead_app, bdead_app. cbn [nlive ndead bdead in_file esize].
  rewrite (is_live_new i (f, p, e)), !N.add_0_r. set (i' := idx_step i (f, p, e)) in *. set (en := (f, p, e)).
  destruct (iget i (e_key e)) as [prev|]; cbn [old_in old_len].
  - destruct H as (L1 & f0 & p0 & e0 & L2 & -> & -> & Hl & Hd & Hsame). cbn [loc_of l_fid l_len].
    assert (H1 : forall r, In r L1 -> is_live i' r = is_live i r) by (intros; apply Hsame, in_or_app; auto).
    assert (H2 : forall r, In r L2 -> is_live i' r = is_live i r) by (intros; apply Hsame, in_or_app; auto).
    rewrite !nlive_app, !ndead_app, !bdead_app. cbn [nlive ndead bdead in_file esize]. rewrite Hl, Hd.
    destruct (counts_agree L1 i' i g H1) as (-> & -> & ->). destruct (counts_agree L2 i' i g H2) as (-> & -> & ->).
    unfold b2n. destruct (f0 =? g); cbn [andb negb]; repeat split; lia.
  - destruct (counts_agree L i' i g H) as (-> & -> & ->).
    unfold b2n. repeat split; lia.
Qed.
