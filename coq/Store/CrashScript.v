(* Store/CrashScript.v — crash safety of whole scripts: every crash image (any call boundary, the last
   write cut at any byte) of the trace of any ready script recovers to the map after the first n
   operations, for some n: the acknowledged operations are there, the one in flight entirely or not at
   all.  Parametric in the per-operation statement, proved here for set / delete / reopen / get (from
   the append of Store/Crash.v) and in Store/CrashMerge.v for a merge pass. *)
From BC Require Import Base.Bytes Store.Codec Store.CodecProofs Store.Engine Store.Log Store.Step Store.Cons Store.Inv Store.Refine
  Store.MergeLemmas Store.Merge Store.Sizes Store.Theorems Store.Crash.
From Coq Require Import Lia List NArith ZArith.
Import ListNotations.
Open Scope N_scope.

(* [image_recovers] of Store/Crash.v, under the name the statements about scripts use *)
Definition img_ok (img : fs) (m : bytes -> option bytes) : Prop := image_recovers img m.

Definition step_safe_at (c : cfg) (s : st) (o : op) : Prop :=
  forall s0, rep s0 (s_dir s) ->
    let '(s', _, t) := step c s o in
    trace_wf t ->
    (exists s1, fs_run s0 t = Some s1 /\ rep s1 (s_dir s')) /\
    forall img, image_of s0 t img -> img_ok img (abs s) \/ img_ok img (abs s').

Lemma img_ok_rep s0 s : Inv s -> rep s0 (s_dir s) -> img_ok s0 (abs s).
Proof. intros HI Hr. exact (rep_good_ok _ _ _ Hr (inv_good s HI)). Qed.

Lemma silent_safe c s o : Inv s -> (let '(s', _, t) := step c s o in t = [] /\ s_dir s' = s_dir s) -> step_safe_at c s o.
Proof.
  intros HI H s0 Hr. destruct (step c s o) as [[s' r] t]. destruct H as [-> Hd]. intros _. apply walk_rep.
  exists s0. rewrite Hd. split; [|exact Hr]. apply walk_nil. left. apply img_ok_rep; assumption.
Qed.

Theorem write_op_safe c s o : Inv s -> is_write o -> step_safe_at c s o.
Proof.
  intros HI Ho s0 Hr. pose proof (step_write c s o HI Ho) as Hw. destruct (step c s o) as [[s' r] t].
  destruct Hw as (k & v & s1 & l & Hw & Hd & _). intros Hwf.
  destruct (write_safe c s k v s1 l t s0 HI Hw Hr Hwf) as [Hrun Himg]. unfold abs at 2, slog. rewrite Hd. split; [exact Hrun|exact Himg].
Qed.

Theorem reopen_safe c s : Inv s -> step_safe_at c s OReopen.
Proof.
  intros HI s0 Hr. cbn [step]. destruct (reopen_ok s HI) as (s' & t & Ho & HI' & _).
  destruct (reopen_shape s HI) as (_ & Hn & i & x & _ & Ho'). rewrite Ho' in Ho |- *. injection Ho as <- _.
  destruct (rep_after_create s0 (s_dir s) _ Hr Hn) as [_ Hr2].
  intros _. apply walk_rep. eexists. split; [|exact Hr2].
  apply walk_create; [exact (proj1 (rep_none s0 _ _ Hr Hn))|left; apply img_ok_rep; assumption|].
  apply walk_nil. right. exact (img_ok_rep _ _ HI' Hr2).
Qed.

Fixpoint state_after (c : cfg) (s : st) (ops : list op) (n : nat) : st :=
  match n, ops with
  | S n', o :: ops' => state_after c (fst (fst (step c s o))) ops' n'
  | _, _ => s
  end.

Theorem script_crash_safe c : forall ops s s0,
  Inv s -> run_ready c s ops -> rep s0 (s_dir s) -> trace_wf (snd (run c s ops)) ->
  (forall s' o, Inv s' -> op_ready c s' o -> In o ops -> step_safe_at c s' o) ->
  (exists s1, fs_run s0 (snd (run c s ops)) = Some s1 /\ rep s1 (s_dir (fst (fst (run c s ops))))) /\
  forall img, image_of s0 (snd (run c s ops)) img ->
    exists n, (n <= length ops)%nat /\ img_ok img (abs (state_after c s ops n)).
Proof.
  induction ops as [|o ops IH]; intros s s0 HI Hready Hr Hwf Hsafe; apply walk_rep; cbn [run snd fst] in *.
  - exists s0. split; [|exact Hr]. apply walk_nil. exists 0%nat. split; [lia|]. apply img_ok_rep; assumption.
  - destruct Hready as [Hr1 Hr2].
    pose proof (Hsafe s o HI Hr1 (or_introl eq_refl) s0 Hr) as Hstep.
    pose proof (step_refines c s o HI Hr1) as Href.
    destruct (step c s o) as [[s1 r] t] eqn:Es. cbn [fst] in Hr2. destruct Href as (HI1 & _ & _).
    destruct (run c s1 ops) as [[s2 rs] ts] eqn:Er. cbn [snd fst] in *.
    apply Forall_app in Hwf as [Hwf1 Hwf2].
    apply walk_rep in Hstep as (f1 & Hw1 & Hrep1); [|exact Hwf1].
    specialize (IH s1 f1 HI1 Hr2 Hrep1). rewrite Er in IH. cbn [snd fst] in IH.
    apply walk_rep in IH as (f2 & Hw2 & Hrep2); [|exact Hwf2|intros s' o' H1 H2 H3; exact (Hsafe s' o' H1 H2 (or_intror H3))].
    exists f2. split; [|exact Hrep2]. apply (walk_app _ _ _ f1).
    + eapply walk_mono; [|exact Hw1]. intros img [H0|H1].
      * exists 0%nat. split; [lia|exact H0].
      * exists 1%nat. split; [cbn; lia|]. cbn [state_after]. rewrite Es. destruct ops; exact H1.
    + eapply walk_mono; [|exact Hw2]. intros img (n & Hn & Hok).
      exists (S n). split; [cbn; lia|]. cbn [state_after]. rewrite Es. exact Hok.
Qed.

Lemma run_snoc c s ops1 o : Inv s -> run_ready c s (ops1 ++ [o]) -> trace_wf (snd (run c s (ops1 ++ [o]))) ->
  let s1 := fst (fst (run c s ops1)) in
  run_ready c s ops1 /\ Inv s1 /\ op_ready c s1 o /\ trace_wf (snd (run c s ops1)) /\ trace_wf (snd (step c s1 o)).
Proof.
  intros HI Hready Hwf. cbv zeta. destruct (run_ready_app c ops1 s [o] Hready) as [Hr1 [Hop _]].
  rewrite run_app in Hwf. pose proof (run_refines c ops1 s HI Hr1) as Href.
  destruct (run c s ops1) as [[s1 r1] t1]. cbn [fst snd run] in *. destruct Href as (HI1 & _).
  destruct (step c s1 o) as [[s2 r2] t2]. cbn [snd] in *. rewrite app_nil_r in Hwf. apply Forall_app in Hwf as [Hwf1 Hwf2]. auto.
Qed.

(* merge-free scripts need no further hypothesis *)
Definition no_merge (ops : list op) : Prop := forall o, In o ops -> is_merge o = false.

Theorem nomerge_step_safe c s o : Inv s -> is_merge o = false -> step_safe_at c s o.
Proof.
  intros HI Hm. destruct o as [k v|k|k|ord| |tm]; try discriminate.
  - apply write_op_safe; [exact HI|exact I].
  - apply silent_safe; [exact HI|]. cbn [step]. rewrite (get_abs s k HI). auto.
  - apply write_op_safe; [exact HI|exact I].
  - apply reopen_safe; exact HI.
  - apply silent_safe; [exact HI|]. cbn [step]. auto.
Qed.

Lemma no_merge_ready c : forall ops s, no_merge ops -> run_ready c s ops.
Proof.
  induction ops as [|o ops IH]; intros s H; cbn [run_ready]; [exact I|]. split.
  - specialize (H o (or_introl eq_refl)). destruct o; try discriminate; exact I.
  - apply IH. intros o' Ho'. apply H. right. exact Ho'.
Qed.

Theorem crash_safe_no_merge c ops s0 : no_merge ops -> rep s0 (s_dir init) -> trace_wf (snd (run c init ops)) ->
  forall img, image_of s0 (snd (run c init ops)) img ->
    exists n, (n <= length ops)%nat /\ img_ok img (abs (state_after c init ops n)).
Proof.
  intros Hn Hr Hwf. apply script_crash_safe; [exact (proj1 init_inv)|apply no_merge_ready; exact Hn|exact Hr|exact Hwf|].
  intros s' o HI _ Hin. apply nomerge_step_safe; [exact HI|apply Hn; exact Hin].
Qed.
