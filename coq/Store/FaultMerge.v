(* Store/FaultMerge.v — a merge pass that stops in the middle of its copy loop because the write of a HINT entry
   failed ([merge_fail_hint], Store/MergeFail.v; C20), in each order of a copy's steps the repository has had.
   Two properties that hold in every invariant state, and on which later restarts and merges depend:
       [reach_ok]:  every index entry lies in a file that exists, and if that file has a hint file (a restart reads it
                    through the hint file only) the entry is listed there;
       [hint_rows]: a file whose hint file lists something has a row of the statistics, so later merges select it.
   [reach_ok] survives a failure at ANY entry of ANY pass when the hint entry is written before the index entry is moved
   (97ca669, [hint_first_keeps_reach]); [hint_rows] survives when the row is written before the hint entry (a53a922,
   [row_first_keeps_hint_rows]).  For the other orders the histories of the two findings, computed in the model, lose a
   key (index entry first, the pinned order: [pinned_order_loses_key]) or bring a deleted one back (hint entry before
   the row: [hint_before_row_resurrects]).
   Not proved: the map a restart yields after the process went on behind the failed pass (the unlisted copy breaks
   [hints_ok], hence [Inv]); that is decided by the fault sweep of `bin/check C20`. *)
From BC Require Import Base.Bytes Store.Codec Store.Engine Store.Log Store.Step Store.Cons Store.Inv Store.Refine
  Store.MergeLemmas Store.Merge Store.Sizes Store.Theorems Store.Crash Store.MergeFail Store.FaultUnlink.
Open Scope N_scope.

Definition listed (hs : list hint) (k : bytes) (l : loc) : Prop :=
  exists h, In h hs /\ h_pos h = l_pos l /\ h_key h = k.

Definition reach_ok (d : dir) (i : index) : Prop :=
  forall k l, iget i k = Some l ->
    exists f, dir_get d (l_fid l) = Some f /\ forall hs, d_hint f = Some hs -> listed hs k l.

Definition hint_rows (d : dir) (x : stats_t) : Prop :=
  forall id f hs h, dir_get d id = Some f -> d_hint f = Some hs -> In h hs -> sget x id <> None.

Lemma append_data_get d id e d1 p : append_data d id e = Some (d1, p) ->
  exists f, dir_get d id = Some f /\
    forall j, dir_get d1 j = if id =? j then Some (mkFile (d_data f ++ [e]) (d_hint f)) else dir_get d j.
Proof.
  unfold append_data. destruct (dir_get d id) as [f|] eqn:E; [|discriminate]. intros H. injection H as <- _.
  exists f. split; [reflexivity|]. intros j. apply dir_get_set.
Qed.

Lemma append_hint_get d id h f : dir_get d id = Some f ->
  forall j, dir_get (append_hint d id h) j =
            if id =? j then Some (mkFile (d_data f) (match d_hint f with Some hs => Some (hs ++ [h]) | None => Some [h] end)) else dir_get d j.
Proof. intros E j. unfold append_hint. rewrite E. apply dir_get_set. Qed.

Lemma create_pair_get d id d' : create_pair d id = Some d' ->
  dir_get d id = None /\ forall j, dir_get d' j = if id =? j then Some (mkFile [] (Some [])) else dir_get d j.
Proof.
  unfold create_pair. destruct (dir_get d id) eqn:E; [discriminate|]. intros H. injection H as <-.
  split; [reflexivity|]. intros j. apply dir_get_set.
Qed.

(* the copy of a record into file [a] — the data append, then the hint append — as replacements of [a] *)
Lemma copy_get d a e d1 p h : append_data d a e = Some (d1, p) ->
  exists f, dir_get d a = Some f /\
    (forall j, dir_get d1 j = if a =? j then Some (mkFile (d_data f ++ [e]) (d_hint f)) else dir_get d j) /\
    (forall j, dir_get (append_hint d1 a h) j =
               if a =? j then Some (mkFile (d_data f ++ [e]) (match d_hint f with Some hs => Some (hs ++ [h]) | None => Some [h] end))
               else dir_get d j).
Proof.
  intros Ha. destruct (append_data_get _ _ _ _ _ Ha) as (f & Hf & Hd1). exists f. split; [exact Hf|]. split; [exact Hd1|].
  intros j. rewrite (append_hint_get d1 a h (mkFile (d_data f ++ [e]) (d_hint f))), Hd1 by (rewrite Hd1, N.eqb_refl; reflexivity).
  destruct (a =? j); reflexivity.
Qed.

(* [dir_ext d d']: every file of [d] is still there in [d'], and is read through a hint file only if it was before,
   one that lists at least what that one listed ([hint_ext]).  Every step of a merge pass extends the directory in this
   sense, and [reach_ok] is monotone in it. *)
Definition hint_ext (o o' : option (list hint)) : Prop :=
  forall hs', o' = Some hs' -> exists hs, o = Some hs /\ incl hs hs'.

Definition dir_ext (d d' : dir) : Prop :=
  forall j f, dir_get d j = Some f -> exists f', dir_get d' j = Some f' /\ hint_ext (d_hint f) (d_hint f').

Lemma hint_ext_refl o : hint_ext o o.
Proof. intros hs E. exists hs. split; [exact E|apply incl_refl]. Qed.

Lemma hint_ext_snoc hs h : hint_ext (Some hs) (Some (hs ++ [h])).
Proof. intros hs' E. injection E as <-. exists hs. split; [reflexivity|apply incl_appl, incl_refl]. Qed.

Lemma reach_ok_mono d d' i : dir_ext d d' -> reach_ok d i -> reach_ok d' i.
Proof.
  intros He HR k l Hk. destruct (HR k l Hk) as (f & Hf & Hl). destruct (He _ f Hf) as (f' & Hf' & Hh).
  exists f'. split; [exact Hf'|]. intros hs' E. destruct (Hh hs' E) as (hs & Ehs & Hincl).
  destruct (Hl hs Ehs) as (h & Hin & Hp). exists h. split; [apply Hincl; exact Hin|exact Hp].
Qed.

Lemma dir_ext_upd d d' a f' : (forall j, dir_get d' j = if a =? j then Some f' else dir_get d j) ->
  match dir_get d a with Some f => hint_ext (d_hint f) (d_hint f') | None => True end -> dir_ext d d'.
Proof.
  intros Hd' Hext j f Hf. rewrite Hd'. destruct (N.eqb_spec a j) as [->|_].
  - rewrite Hf in Hext. exists f'. split; [reflexivity|exact Hext].
  - exists f. split; [exact Hf|apply hint_ext_refl].
Qed.

Lemma create_pair_ext d a d' : create_pair d a = Some d' -> dir_ext d d' /\ dir_get d' a = Some (mkFile [] (Some [])).
Proof.
  intros Hc. destruct (create_pair_get _ _ _ Hc) as [Hnone Hd']. split; [|rewrite Hd', N.eqb_refl; reflexivity].
  apply (dir_ext_upd d d' a _ Hd'). rewrite Hnone. exact I.
Qed.

Lemma copy_ext d a f hs e d1 p h : dir_get d a = Some f -> d_hint f = Some hs -> append_data d a e = Some (d1, p) ->
  dir_ext d d1 /\ dir_ext d (append_hint d1 a h) /\
  dir_get (append_hint d1 a h) a = Some (mkFile (d_data f ++ [e]) (Some (hs ++ [h]))).
Proof.
  intros Hf Hhs Ha. destruct (copy_get d a e d1 p h Ha) as (f0 & Hf0 & Hd1 & Hd2). rewrite Hf in Hf0. injection Hf0 as <-.
  rewrite Hhs in Hd2. split; [|split].
  - apply (dir_ext_upd d d1 a _ Hd1). rewrite Hf. apply hint_ext_refl.
  - apply (dir_ext_upd d _ a _ Hd2). rewrite Hf, Hhs. apply hint_ext_snoc.
  - rewrite Hd2, N.eqb_refl. reflexivity.
Qed.

Lemma hint_rows_upd d d' x a f' : hint_rows d x ->
  (forall j, dir_get d' j = if a =? j then Some f' else dir_get d j) ->
  (forall hs h, d_hint f' = Some hs -> In h hs -> sget x a <> None) -> hint_rows d' x.
Proof.
  intros HR Hd' Hf' id f hs h Hf Hhs Hin. rewrite Hd' in Hf. destruct (N.eqb_spec a id) as [<-|_].
  - injection Hf as <-. exact (Hf' hs h Hhs Hin).
  - exact (HR id f hs h Hf Hhs Hin).
Qed.

Lemma create_keeps_hint_rows d x id d' : hint_rows d x -> create_pair d id = Some d' -> hint_rows d' x.
Proof.
  intros HR Hc. destruct (create_pair_get _ _ _ Hc) as [_ Hd']. apply (hint_rows_upd d d' x id _ HR Hd').
  cbn [d_hint]. intros hs h E. injection E as <-. intros [].
Qed.

Lemma hint_rows_aset d x a c : hint_rows d x -> hint_rows d (aset x a c).
Proof.
  intros HR id f hs h Hf Hhs Hin. rewrite sget_aset. destruct (id =? a); [discriminate|exact (HR id f hs h Hf Hhs Hin)].
Qed.

(* the row first: once file [a] has a row, the copy of a record into it keeps [hint_rows], with or without its hint entry *)
Lemma copy_keeps_hint_rows d x a cnt e d1 p h : hint_rows d x -> append_data d a e = Some (d1, p) ->
  hint_rows d1 (aset x a cnt) /\ hint_rows (append_hint d1 a h) (aset x a cnt).
Proof.
  intros HR Ha. apply (hint_rows_aset _ _ a cnt) in HR. destruct (copy_get d a e d1 p h Ha) as (f & Hf & Hd1 & Hd2). split.
  - apply (hint_rows_upd d d1 _ a _ HR Hd1). intros hs h0. exact (HR a f hs h0 Hf).
  - apply (hint_rows_upd d _ _ a _ HR Hd2). intros _ _ _ _. rewrite sget_aset, N.eqb_refl. discriminate.
Qed.

(* kept by every copy: [reach_ok], and the merge file has a hint file *)
Definition loop_inv (m : mstate) : Prop :=
  reach_ok (m_dir m) (m_idx m) /\ exists f hs, dir_get (m_dir m) (m_id m) = Some f /\ d_hint f = Some hs.

Lemma merge_one_inv c m k l m' : loop_inv m -> merge_one c m k l = ROk m' -> loop_inv m'.
Proof.
  intros [HR (fm & hs & Hfm & Hhs)] H.
  destruct (merge_one_spec c m k l m' H) as (e & d1 & p & _ & Ha & Hi & _ & Hd). cbv zeta in Hd.
  set (h := mkHint (l_ts l) (l_len l) (m_pos m) k) in *.
  destruct (copy_ext _ _ _ _ _ _ _ h Hfm Hhs Ha) as (_ & He2 & Hg2).
  (* the moved entry points at the copy, which the hint entry just written lists *)
  assert (HR2 : reach_ok (append_hint d1 (m_id m) h) (m_idx m')).
  { rewrite Hi. intros k' lk Hk. rewrite iget_aset in Hk.
    destruct (beq k' k) eqn:Ek; [|exact (reach_ok_mono _ _ _ He2 HR k' lk Hk)].
    injection Hk as <-. apply beq_eq in Ek. subst k'. cbn [l_fid l_pos]. eexists. split; [exact Hg2|]. cbn [d_hint].
    intros hs' E. injection E as <-. exists h. split; [apply in_or_app; right; left; reflexivity|split; reflexivity]. }
  unfold loop_inv. destruct Hd as [[-> ->]|[Hc ->]].
  - split; [exact HR2|]. eexists _, _. split; [exact Hg2|reflexivity].
  - destruct (create_pair_ext _ _ _ Hc) as [He3 Hg3]. split; [exact (reach_ok_mono _ _ _ He3 HR2)|].
    eexists _, _. split; [exact Hg3|reflexivity].
Qed.

Lemma merge_one_hint_rows c m k l m' : hint_rows (m_dir m) (m_stats m) -> merge_one c m k l = ROk m' ->
  hint_rows (m_dir m') (m_stats m').
Proof.
  intros HR H. destruct (merge_one_spec c m k l m' H) as (e & d1 & p & _ & Ha & _ & -> & Hd). cbv zeta in Hd.
  destruct (copy_keeps_hint_rows _ _ _ (add_live (sget0 (m_stats m) (m_id m))) _ _ _ (mkHint (l_ts l) (l_len l) (m_pos m) k) HR Ha) as [_ HR2].
  destruct Hd as [[-> _]|[Hc _]]; [exact HR2|exact (create_keeps_hint_rows _ _ _ _ HR2 Hc)].
Qed.

Lemma merge_fail_hint_inv repoint_first row_first retried c s ord1 k s' :
  merge_fail_hint repoint_first row_first retried c s ord1 k = ROk s' ->
  exists sel d0 m l e d1 p,
    create_pair (s_dir s) (s_last s + 1) = Some d0 /\
    merge_loop c sel (mkM d0 (s_idx s) (s_stats s) (s_last s + 1) 0 (s_last s + 1)
                          [SCreate (FHint (s_last s + 1)); SCreate (FData (s_last s + 1))]) ord1 = ROk m /\
    iget (m_idx m) k = Some l /\ append_data (m_dir m) (m_id m) e = Some (d1, p) /\
    s_dir s' = (if retried then append_hint d1 (m_id m) (mkHint (l_ts l) (l_len l) (m_pos m) k) else d1) /\
    s_idx s' = (if repoint_first then aset (m_idx m) k (mkLoc (m_id m) (m_pos m) (l_len l) (l_ts l)) else m_idx m) /\
    s_stats s' = (if repoint_first || row_first then aset (m_stats m) (m_id m) (add_live (sget0 (m_stats m) (m_id m))) else m_stats m).
Proof.
  unfold merge_fail_hint. intros H.
  destruct (select c s) as [sel0| |]; try discriminate.
  destruct (create_pair (s_dir s) (s_last s + 1)) as [d0|]; [|discriminate].
  destruct (merge_loop c (sort_ids sel0) _ ord1) as [m| |] eqn:El; try discriminate.
  destruct (iget (m_idx m) k) as [l|] eqn:Ek; [|discriminate].
  destruct (negb (mem (l_fid l) (sort_ids sel0))); [discriminate|].
  destruct (read_loc (m_dir m) l) as [e| |]; try discriminate.
  destruct (append_data (m_dir m) (m_id m) e) as [[d1 p]|] eqn:Ea; [|discriminate].
  injection H as <-. exists (sort_ids sel0), d0, m, l, e, d1, p. repeat split; assumption.
Qed.

(* with the hint entry written first, a failing hint write at any entry of any pass leaves every index
   entry in a file that exists and, where that file is read through a hint file, listed there *)
Theorem hint_first_keeps_reach row_first retried c s ord1 k s' : reach_ok (s_dir s) (s_idx s) ->
  merge_fail_hint false row_first retried c s ord1 k = ROk s' -> reach_ok (s_dir s') (s_idx s').
Proof.
  intros HR H.
  destruct (merge_fail_hint_inv _ _ _ _ _ _ _ _ H) as (sel & d0 & m & l & e & d1 & p & Hc & Hloop & _ & Ha & -> & -> & _).
  destruct (create_pair_ext _ _ _ Hc) as [He0 Hg0].
  apply (merge_loop_keeps loop_inv c _ (fun m k l m' HJ _ _ => merge_one_inv c m k l m' HJ)) in Hloop as [HRm (fm & hs & Hfm & Hhs)].
  2:{ split; [exact (reach_ok_mono _ _ _ He0 HR)|]. eexists _, _. split; [exact Hg0|reflexivity]. }
  destruct (copy_ext _ _ _ _ _ _ _ (mkHint (l_ts l) (l_len l) (m_pos m) k) Hfm Hhs Ha) as (He1 & He2 & _).
  destruct retried; [exact (reach_ok_mono _ _ _ He2 HRm)|exact (reach_ok_mono _ _ _ He1 HRm)].
Qed.

(* reachable states satisfy the hypothesis *)
Lemma hints_of_In fid : forall es pos p e, In (fid, p, e) (log_file fid es pos) ->
  exists h, In h (hints_of es pos) /\ h_pos h = p /\ h_key h = e_key e.
Proof.
  induction es as [|x es IH]; intros pos p e Hin; cbn [log_file hints_of In] in *; [destruct Hin|].
  destruct Hin as [Hin|Hin].
  - inversion Hin; subst. eexists. split; [left; reflexivity|]. split; reflexivity.
  - destruct (IH _ _ _ Hin) as (h & Hh & Hp & Hk). exists h. split; [right; exact Hh|auto].
Qed.

Theorem inv_reach_ok s : Inv s -> reach_ok (s_dir s) (s_idx s).
Proof.
  intros HI k l Hk. rewrite (proj1 (Inv_cons s HI)) in Hk.
  destruct (lastloc_In _ _ _ Hk) as (f & p & e & Hin & -> & Hkey & _).
  destruct (log_of_dir_In (s_dir s) (Inv_sorted s HI) f p e Hin) as (g & Hget & Hin'). cbn [loc_of l_fid l_pos].
  exists g. split; [exact Hget|]. intros hs Ehs.
  destruct (hints_ok_some g hs (Inv_hints s HI f g (dir_get_In _ _ _ Hget)) Ehs) as [-> _].
  destruct (hints_of_In f _ _ _ _ Hin') as (h & Hh1 & Hp & Hk1). exists h. split; [exact Hh1|]. split; [exact Hp|].
  rewrite Hk1. exact Hkey.
Qed.

Definition fm_cfg : cfg := mkCfg 2147483648 false 0 1 0 0.
Definition fm_before : st := fst (fst (run fm_cfg init [OSet [75] [118]; OSet [97] [49]; OSet [97] [50]])).

Definition fm_history (repoint_first : bool) : out :=
  match merge_fail_hint repoint_first true false fm_cfg fm_before [] [75] with
  | ROk s' =>
    let '(_, outs, _) := run fm_cfg s' [OMerge [[75]; [97]]; OReopen; OGet [75]] in
    last outs VUnit
  | _ => VUnit
  end.

Theorem pinned_order_loses_key : fm_history true = VVal None.
Proof. vm_compute. reflexivity. Qed.
Theorem repaired_order_keeps_key : fm_history false = VVal (Some [118]).
Proof. vm_compute. reflexivity. Qed.

(* under the pinned order the state after the failure violates [reach_ok]: K points into the merge file, whose hint
   file is empty *)
Example pinned_order_breaks_reach :
  match merge_fail_hint true true false fm_cfg fm_before [] [75] with
  | ROk s' => exists l f, iget (s_idx s') [75] = Some l /\ dir_get (s_dir s') (l_fid l) = Some f /\ d_hint f = Some []
  | _ => False
  end.
Proof. vm_compute. eexists. eexists. split; [reflexivity|]. split; reflexivity. Qed.

(* The first repair (97ca669) wrote the hint entry before the merge file had a row.  When the failing write is the FIRST
   hint write of the pass and the retry at drop writes it out, the merge file lists a record and has no row: the history
       set k v; set k w; merge (first hint write fails, written out at drop); del k; merge; restart; get k
   resurrects k without the row and not with it (final repair a53a922: row first). *)
Definition fm2_before : st := fst (fst (run fm_cfg init [OSet [107] [118]; OSet [107] [119]])).
Definition fm2_history (row_first : bool) : out :=
  match merge_fail_hint false row_first true fm_cfg fm2_before [] [107] with
  | ROk s' =>
    let '(_, outs, _) := run fm_cfg s' [ODel [107]; OMerge []; OReopen; OGet [107]] in
    last outs VUnit
  | _ => VUnit
  end.
Theorem hint_before_row_resurrects : fm2_history false = VVal (Some [119]).
Proof. vm_compute. reflexivity. Qed.
Theorem row_before_hint_does_not : fm2_history true = VVal None.
Proof. vm_compute. reflexivity. Qed.

Lemma fm_before_inv : Inv fm_before.
Proof. apply run_inv. cbn [run_ready op_ready]. auto. Qed.

(* Rows for listed records (what the final repair a53a922 is about).  [hint_rows]: a file whose hint file lists
   something has a row of the statistics, so the downward-closed selection of later merges takes it.  The loop keeps it, and so does a failing hint write when the row is written first, whether or
   not the bytes of the hint entry reach the file at drop. *)
Theorem row_first_keeps_hint_rows repoint_first retried c s ord1 k s' : hint_rows (s_dir s) (s_stats s) ->
  merge_fail_hint repoint_first true retried c s ord1 k = ROk s' -> hint_rows (s_dir s') (s_stats s').
Proof.
  intros HR H.
  destruct (merge_fail_hint_inv _ _ _ _ _ _ _ _ H) as (sel & d0 & m & l & e & d1 & p & Hc & Hloop & _ & Ha & -> & _ & ->).
  rewrite orb_true_r.
  apply (merge_loop_keeps (fun m => hint_rows (m_dir m) (m_stats m)) c _ (fun m k l m' HJ _ _ => merge_one_hint_rows c m k l m' HJ))
    in Hloop as HRm; [|exact (create_keeps_hint_rows _ _ _ _ HR Hc)].
  destruct (copy_keeps_hint_rows _ _ _ (add_live (sget0 (m_stats m) (m_id m))) _ _ _ (mkHint (l_ts l) (l_len l) (m_pos m) k) HRm Ha) as [HR1 HR2].
  destruct retried; [exact HR2|exact HR1].
Qed.

(* reachable states satisfy the hypothesis: a listed record is a record, and files that hold records have rows *)
Theorem inv_hint_rows s : Inv s -> hint_rows (s_dir s) (s_stats s).
Proof.
  intros HI id f hs h Hf Hhs Hin.
  destruct (hints_ok_some f hs (Inv_hints s HI id f (dir_get_In _ _ _ Hf)) Hhs) as [-> _].
  apply (inv_rows_cover s HI), (dir_get_has_file _ _ f Hf). intros E. rewrite E in Hin. destruct Hin.
Qed.

(* ... and with the hint entry before the row (first repair) it is lost when the bytes reach the file at drop *)
Example hint_before_row_loses_the_row :
  match merge_fail_hint false false true fm_cfg fm2_before [] [107] with
  | ROk s' => exists id f h, dir_get (s_dir s') id = Some f /\ d_hint f = Some [h] /\ sget (s_stats s') id = None
  | _ => False
  end.
Proof. vm_compute. exists 1. eexists. eexists. split; [reflexivity|]. split; reflexivity. Qed.
