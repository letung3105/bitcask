(* Store/MergeLemmas.v — supporting facts for the merge proof: membership in the selection, which
   [sort_ids] sorts ([lsorted]); the keys an update log lists; and removing files from a directory
   filters its log. *)
From BC Require Import Store.Engine Store.Log Store.Step Store.Cons Store.Inv.
Open Scope N_scope.

Lemma mem_sort_insert a l g : mem g (sort_insert a l) = (g =? a) || mem g l.
Proof.
  unfold mem. induction l as [|b l IH]; cbn [sort_insert existsb]; [reflexivity|].
  destruct (a <=? b); cbn [existsb]; [reflexivity|]. rewrite IH.
  destruct (g =? a), (g =? b); reflexivity.
Qed.

Lemma mem_sort_ids l g : mem g (sort_ids l) = mem g l.
Proof.
  unfold sort_ids. induction l as [|a l IH]; cbn [fold_right]; [reflexivity|].
  rewrite mem_sort_insert, IH. reflexivity.
Qed.

Lemma mem_app g l1 l2 : mem g (l1 ++ l2) = mem g l1 || mem g l2.
Proof. unfold mem. apply existsb_app. Qed.

Fixpoint lsorted (l : list N) : Prop :=
  match l with [] => True | a :: l' => Forall (fun b => a <= b) l' /\ lsorted l' end.

Lemma mem_In g l : mem g l = true <-> In g l.
Proof.
  unfold mem. rewrite existsb_exists. split; [intros (x & Hx & E); apply N.eqb_eq in E; subst; exact Hx|intros H; exists g; split; [exact H|apply N.eqb_refl]].
Qed.

Lemma In_sort_insert a l x : In x (sort_insert a l) <-> x = a \/ In x l.
Proof. rewrite <- !mem_In, mem_sort_insert, orb_true_iff, N.eqb_eq. reflexivity. Qed.

Lemma sort_insert_sorted a l : lsorted l -> lsorted (sort_insert a l).
Proof.
  induction l as [|b l IH]; cbn [sort_insert lsorted]; [auto|]. intros [Hb Hl].
  destruct (N.leb_spec a b) as [Hab|Hab]; cbn [lsorted].
  - split; [|split; assumption]. constructor; [exact Hab|]. rewrite Forall_forall in *. intros x Hx. specialize (Hb x Hx). lia.
  - split; [|apply IH; exact Hl]. rewrite Forall_forall in *. intros x Hx. apply In_sort_insert in Hx as [->|Hx]; [lia|auto].
Qed.

Lemma sort_ids_sorted l : lsorted (sort_ids l).
Proof. induction l as [|a l IH]; cbn [sort_ids fold_right]; [exact I|]. apply sort_insert_sorted. exact IH. Qed.

(* a prefix of a sorted list is closed downwards within the list *)
Lemma lsorted_prefix_mem : forall done rest g, lsorted (done ++ rest) -> mem g (done ++ rest) = true ->
  mem g done = existsb (fun r => g <=? r) done.
Proof.
  induction done as [|a done IH]; intros rest g Hs Hg; [reflexivity|]. destruct Hs as [Ha Hs]. unfold mem in *. cbn [app existsb] in *.
  destruct (N.eqb_spec g a) as [->|Hne]; [rewrite N.leb_refl; reflexivity|]. cbn [orb] in *. rewrite (IH rest g Hs Hg).
  apply existsb_exists in Hg as (x & Hx & E). apply N.eqb_eq in E. subst x. rewrite Forall_forall in Ha. specialize (Ha g Hx).
  destruct (N.leb_spec g a); [lia|reflexivity].
Qed.

Lemma mem_filter (P : N -> bool) l g : mem g (filter P l) = mem g l && P g.
Proof.
  unfold mem. induction l as [|a l IH]; cbn [filter existsb]; [reflexivity|].
  destruct (P a) eqn:Ea; cbn [existsb]; rewrite IH.
  - destruct (N.eqb_spec g a) as [->|]; [rewrite Ea; cbn; destruct (existsb _ l); reflexivity|reflexivity].
  - destruct (N.eqb_spec g a) as [->|]; [rewrite Ea; cbn; rewrite andb_false_r; reflexivity|reflexivity].
Qed.

Lemma akeys_aux_complete {V} (m : amap N V) : True.
Proof. exact I. Qed.

Lemma existsb_keq {K} (keq : K -> K -> bool) (Hkeq : forall a b, reflect (a = b) (keq a b)) k l :
  existsb (keq k) l = true <-> In k l.
Proof.
  rewrite existsb_exists. split.
  - intros (k' & Hin & E). destruct (Hkeq k k'); [subst; exact Hin|discriminate].
  - intros Hin. exists k. split; [exact Hin|]. destruct (Hkeq k k); [reflexivity|contradiction].
Qed.

(* [akeys] lists exactly the bound keys: [seen] holds the keys whose latest update was met *)
Lemma akeys_aux_In {K V} (keq : K -> K -> bool) (Hkeq : forall a b, reflect (a = b) (keq a b)) (m : amap K V) :
  forall seen k, In k (akeys_aux keq m seen) <-> ~ In k seen /\ aget keq m k <> None.
Proof.
  induction m as [|[k0 o] m IH]; intros seen k; cbn [akeys_aux aget].
  - split; [intros []|intros [_ H]; exact (H eq_refl)].
  - destruct (existsb (keq k0) seen) eqn:E0.
    + apply (existsb_keq keq Hkeq) in E0. rewrite IH. destruct (Hkeq k k0) as [->|Hne]; tauto.
    + assert (Hn0 : ~ In k0 seen) by (rewrite <- (existsb_keq keq Hkeq), E0; discriminate).
      destruct o; cbn [In]; rewrite IH; cbn [In]; destruct (Hkeq k k0) as [->|Hne]; intuition congruence.
Qed.

Lemma ord_ok_visits s sel ord k l : ord_ok s sel ord = true -> iget (s_idx s) k = Some l -> mem (l_fid l) sel = true ->
  existsb (beq k) ord = true.
Proof.
  intros Hok Hk Hl. unfold ord_ok in Hok. apply andb_true_iff in Hok as [_ Hok]. rewrite forallb_forall in Hok.
  assert (Hin : In k (akeys beq (s_idx s))).
  { apply (akeys_aux_In beq beq_spec). split; [intros []|]. unfold iget in Hk. congruence. }
  specialize (Hok k Hin). rewrite Hk, Hl in Hok. exact Hok.
Qed.

Definition keep (S : N -> bool) (en : lentry) : bool := let '(f, _, _) := en in negb (S f).

Lemma filter_log_file S fid es pos :
  filter (keep S) (log_file fid es pos) = if S fid then [] else log_file fid es pos.
Proof.
  revert pos. induction es as [|e es IH]; intros pos; cbn [log_file filter keep]; [destruct (S fid); reflexivity|].
  rewrite IH. destruct (S fid); reflexivity.
Qed.

Fixpoint dir_filter (S : N -> bool) (d : dir) : dir :=
  match d with
  | [] => []
  | (i, f) :: d' => if S i then dir_filter S d' else (i, f) :: dir_filter S d'
  end.

Lemma log_dir_filter S d : log_of_dir (dir_filter S d) = filter (keep S) (log_of_dir d).
Proof.
  induction d as [|[i f] d IH]; cbn [dir_filter log_of_dir]; [reflexivity|].
  rewrite filter_app, filter_log_file. destruct (S i); cbn [log_of_dir app]; rewrite IH; reflexivity.
Qed.

Lemma dir_filter_In S d id f : In (id, f) (dir_filter S d) <-> In (id, f) d /\ S id = false.
Proof.
  induction d as [|[i g] d IH]; cbn [dir_filter In]; [tauto|].
  destruct (S i) eqn:Ei; cbn [In]; rewrite IH; split.
  - intros [H1 H2]. auto.
  - intros [[H|H] H2]; [inversion H; subst; congruence|auto].
  - intros [H|[H1 H2]]; [inversion H; subst; auto|auto].
  - intros [[H|H] H2]; auto.
Qed.

Lemma dir_filter_sorted S d : sorted d -> sorted (dir_filter S d).
Proof.
  induction d as [|[i g] d IH]; cbn [dir_filter sorted]; [auto|].
  intros [Hgt Hs]. destruct (S i); [auto|]. cbn [sorted]. split; [|auto].
  unfold ids_gt in *. rewrite Forall_forall in *. intros [j h] Hin. apply dir_filter_In in Hin as [Hin _]. apply (Hgt _ Hin).
Qed.

Lemma dir_filter_ok S d m : dir_ok d m -> dir_ok (dir_filter S d) m.
Proof.
  intros (Hs & Hle & Hh). split; [apply dir_filter_sorted; exact Hs|]. split.
  - apply ids_le_iff. intros j Hin. apply in_map_iff in Hin as ([j' g] & <- & Hin). apply dir_filter_In in Hin as [Hin _].
    exact (ids_le_In _ _ _ _ Hle Hin).
  - intros id f Hin. apply dir_filter_In in Hin as [Hin _]. exact (Hh _ _ Hin).
Qed.

Lemma dir_remove_filter d id : sorted d -> dir_remove d id = dir_filter (fun j => j =? id) d.
Proof.
  induction d as [|[i g] d IH]; cbn [dir_remove dir_filter sorted]; [reflexivity|].
  intros [Hgt Hs]. destruct (N.eqb_spec i id) as [->|Hne].
  - (* nothing else has this id *)
    clear IH. induction d as [|[j h] d IHd]; [reflexivity|]. cbn [dir_filter].
    inversion Hgt as [|? ? Hj Hgt']; subst. destruct (N.eqb_spec j id); [lia|].
    destruct Hs as [_ Hs']. rewrite <- IHd; auto.
  - rewrite IH by exact Hs. reflexivity.
Qed.

Lemma dir_filter_filter S1 S2 d : dir_filter S1 (dir_filter S2 d) = dir_filter (fun j => S2 j || S1 j) d.
Proof.
  induction d as [|[i g] d IH]; cbn [dir_filter]; [reflexivity|].
  destruct (S2 i); cbn [orb dir_filter]; [exact IH|]. destruct (S1 i); rewrite IH; reflexivity.
Qed.

Lemma dir_filter_ext S1 S2 d : (forall j, S1 j = S2 j) -> dir_filter S1 d = dir_filter S2 d.
Proof. intros H. induction d as [|[i g] d IH]; cbn [dir_filter]; [reflexivity|]. rewrite H, IH. reflexivity. Qed.

Lemma dir_filter_none S d : (forall j, S j = false) -> dir_filter S d = d.
Proof. intros H. induction d as [|[i g] d IH]; cbn [dir_filter]; [reflexivity|]. rewrite H, IH. reflexivity. Qed.

Lemma unlink_all_spec : forall sel d x t, sorted d ->
  let '(d', x', _) := unlink_all d x sel t in
  d' = dir_filter (fun j => mem j sel) d /\ (forall g, sget x' g = if mem g sel then None else sget x g).
Proof.
  induction sel as [|id sel IH]; intros d x t Hs; cbn [unlink_all].
  - split; [|intros; reflexivity]. symmetry. apply dir_filter_none. reflexivity.
  - set (t' := match dir_get d id with Some f => _ | None => t end).
    assert (Hs' : sorted (dir_remove d id)) by (rewrite dir_remove_filter by exact Hs; apply dir_filter_sorted; exact Hs).
    specialize (IH (dir_remove d id) (adel x id) t' Hs').
    destruct (unlink_all (dir_remove d id) (adel x id) sel t') as [[d' x'] t''].
    destruct IH as [-> Hx]. split.
    + rewrite dir_remove_filter by exact Hs. rewrite dir_filter_filter. apply dir_filter_ext.
      intros j. unfold mem. cbn [existsb]. reflexivity.
    + intros g. rewrite Hx, sget_adel. unfold mem. cbn [existsb]. destruct (g =? id); cbn [orb]; [destruct (existsb _ sel); reflexivity|reflexivity].
Qed.
