(* Store/CrashMerge.v — crash safety of a merge pass, and with it of every ready script.
   [merge_safe]: every crash image of a pass's trace (any call boundary; a copy's data write or hint
   write cut at any byte) recovers to the map before the merge.  While copying, the old files are all
   there and a merge output is read through its hint file, which is written after the data, so a torn
   or missing hint only hides a copy; the unlinks come after both outputs were fsynced, in ascending
   id order and hint file first, so the removed set is at every instant closed downwards within the
   selection and no tombstone is removed before the values it hides.
   With Store/CrashScript.v for the other operations: [step_safe], [crash_safe], [bytes_on_disk], a
   crash during an operation ([crash_during_op]) and a failed call followed by a restart
   ([fault_then_restart]), for every ready script from [init]. *)
From BC Require Import Base.Bytes Store.Codec Store.CodecProofs Store.Engine Store.Log Store.Step Store.Cons Store.Inv Store.Refine
  Store.MergeLemmas Store.Merge Store.Sizes Store.Theorems Store.Crash Store.CrashScript.
From Coq Require Import Lia List NArith ZArith Bool.
Import ListNotations.
Open Scope N_scope.

(* extra bytes on the data file of a hinted file, and a torn tail on its hint file, are not seen *)
Lemma reads_hinted img img' d a fm hs x y : rep img d -> dir_get d a = Some fm -> d_hint fm = Some hs -> torn_hint y ->
  img' (FData a) = Some (file_bytes (d_data fm) ++ x) -> img' (FHint a) = Some (hint_bytes hs ++ y) ->
  (forall g, g <> FData a -> g <> FHint a -> img' g = img g) -> reads_as img' d.
Proof.
  intros Hr Hg Hh Hy Hd Hn Ho id. destruct (N.eqb_spec id a) as [->|Hne].
  - rewrite Hg, Hh. split; eauto.
  - rewrite !Ho by congruence. exact (rep_reads img d Hr id).
Qed.

(* a fresh pair of output files: data file first *)
Lemma create_pair_fs f d n : rep f d -> dir_get d n = None ->
  let f1 := fupd f (FData n) (Some []) in
  f (FData n) = None /\ f (FHint n) = None /\ rep f1 (d ++ [(n, empty_file)]) /\
  rep (fupd f1 (FHint n) (Some [])) (d ++ [(n, mkFile [] (Some []))]).
Proof.
  intros Hr Hn f1. destruct (rep_none f d n Hr Hn) as [H1 H2]. split; [exact H1|]. split; [exact H2|].
  split; [exact (proj2 (rep_after_create f d n Hr Hn))|]. rewrite <- (dir_set_new d n _ Hn).
  apply (rep_set f); [exact Hr| |apply fupd_same|].
  - unfold f1. rewrite fupd_other by discriminate. apply fupd_same.
  - intros x Hx1 Hx2. unfold f1. rewrite !fupd_other by assumption. reflexivity.
Qed.

Lemma create_pair_walk m0 f d n t f' : rep f d -> dir_get d n = None -> good m0 d -> good m0 (d ++ [(n, empty_file)]) ->
  walk (fun i => img_ok i m0) (fupd (fupd f (FData n) (Some [])) (FHint n) (Some [])) t f' ->
  walk (fun i => img_ok i m0) f (SCreate (FData n) :: SCreate (FHint n) :: t) f'.
Proof.
  intros Hrep Hn Hg Hg1 Ht. destruct (create_pair_fs f d n Hrep Hn) as (Hnd & Hnh & Hr1 & _).
  apply (walk_create _ _ _ _ _ Hnd (rep_good_ok _ _ _ Hrep Hg)), walk_create; [|exact (rep_good_ok _ _ _ Hr1 Hg1)|exact Ht].
  rewrite fupd_other by discriminate. exact Hnh.
Qed.

(* a copy into a file that is read through its hint file: until the hint is complete the scanner
   reads the directory as it was, whatever the data file has gained *)
Lemma copy_walk m0 f d a fm hs be bh t f' : rep f d -> good m0 d -> dir_get d a = Some fm -> d_hint fm = Some hs ->
  call_wf (SWrite (FHint a) bh) ->
  walk (fun i => img_ok i m0) (fupd (fupd f (FData a) (Some (file_bytes (d_data fm) ++ be))) (FHint a) (Some (hint_bytes hs ++ bh))) t f' ->
  walk (fun i => img_ok i m0) f (SWrite (FData a) be :: SWrite (FHint a) bh :: t) f'.
Proof.
  intros Hrep Hgood Hfm Hhint (h & Hwfh & Eh) Ht. destruct (rep_get f d a fm Hrep Hfm) as [Hfd Hfh]. rewrite Hhint in Hfh.
  assert (Hdata : forall x, img_ok (fupd f (FData a) (Some (file_bytes (d_data fm) ++ x))) m0).
  { intros x. apply (good_img _ _ d); [|exact Hgood].
    apply (reads_hinted f _ _ a fm hs x [] Hrep Hfm Hhint (or_introl eq_refl)); [apply fupd_same| |intros g Hg _; apply fupd_other; exact Hg].
    rewrite fupd_other by discriminate. rewrite app_nil_r. exact Hfh. }
  apply (walk_write _ f _ _ _ _ _ Hfd); [exact (rep_good_ok _ _ _ Hrep Hgood)|intros b1 b2 _ _; apply Hdata|].
  apply (walk_write _ _ _ (hint_bytes hs)); [rewrite fupd_other by discriminate; exact Hfh|apply Hdata| |exact Ht].
  intros b1 b2 Eb Hb. apply (good_img _ _ d); [|exact Hgood].
  apply (reads_hinted f _ _ a fm hs be b1 Hrep Hfm Hhint); [right; exists h, b2; rewrite <- Eh; auto|rewrite fupd_other by discriminate; apply fupd_same|apply fupd_same|].
  intros g Hg1 Hg2. rewrite !fupd_other by assumption. reflexivity.
Qed.

(* of the file system under the copy loop: from [s0], where the pass began, the calls so far end in a
   file system that represents [m_dir m], and every crash image on the way recovers to [m0] *)
Definition TI (s0 : fs) (m0 : bytes -> option bytes) (m : mstate) : Prop :=
  exists f, walk (fun i => img_ok i m0) s0 (rev (m_trace m)) f /\ rep f (m_dir m).

Lemma LI_good s S m M : LI s S m M -> good (abs s) (m_dir m).
Proof.
  intros (Hs & _ & Hh & _ & _ & _ & Hlog & _ & _ & HV). split; [exact Hs|]. split; [exact Hh|]. intros k. rewrite Hlog. apply HV.
Qed.

(* The file system under one copy: the output pair before, the two appended encodings, and on rollover
   the two fsyncs and the fresh pair. *)
Lemma merge_one_fs c s S m M k l m' M' f :
  LI s S m M -> LI s S m' M' -> merge_one c m k l = ROk m' -> rep f (m_dir m) ->
  exists fm e,
    let a := m_id m in
    let es := d_data fm in
    let hs := hints_of es 0 in
    let h := mkHint (l_ts l) (l_len l) (m_pos m) k in
    let d2 := dir_set (m_dir m) a (mkFile (es ++ [e]) (Some (hs ++ [h]))) in
    let f2 := fupd (fupd f (FData a) (Some (file_bytes es ++ enc_entry e))) (FHint a) (Some (hint_bytes hs ++ enc_hint h)) in
    let w := [SWrite (FData a) (enc_entry e); SWrite (FHint a) (enc_hint h)] in
    dir_get (m_dir m) a = Some fm /\ d_hint fm = Some hs /\ m_pos m = data_size es /\
    f (FData a) = Some (file_bytes es) /\ f (FHint a) = Some (hint_bytes hs) /\
    rep f2 d2 /\ good (abs s) d2 /\ hs ++ [h] = hints_of (es ++ [e]) 0 /\
    (trace_wf (rev (m_trace m')) -> call_wf (SWrite (FHint a) (enc_hint h))) /\
    ((m_dir m' = d2 /\ m_id m' = a /\ m_last m' = m_last m /\ m_pos m' <= c_max c /\
      rev (m_trace m') = rev (m_trace m) ++ w) \/
     (let n := m_last m + 1 in
      m_dir m' = d2 ++ [(n, mkFile [] (Some []))] /\ m_id m' = n /\ m_last m' = n /\ m_pos m' = 0 /\
      rev (m_trace m') = rev (m_trace m) ++ w ++ [SFsync (FData a); SFsync (FHint a); SCreate (FData n); SCreate (FHint n)] /\
      dir_get d2 n = None /\ f2 (FData n) = None /\ f2 (FHint n) = None /\
      good (abs s) (d2 ++ [(n, empty_file)]) /\
      rep (fupd (fupd f2 (FData n) (Some [])) (FHint n) (Some [])) (m_dir m'))).
Proof.
  intros HLI HLI' H Hrep. pose proof (LI_good s S m' M' HLI') as Hg'.
  destruct (LI_out s S m M HLI) as (fm & Hfm & Hhint & Hpos). destruct HLI as (Hs & Hle & _ & Hid & _).
  unfold merge_one in H. destruct (read_loc (m_dir m) l) as [e|?|?]; try discriminate. exists fm, e.
  unfold append_data in H. rewrite Hfm in H. unfold append_hint in H. rewrite dir_get_set, N.eqb_refl in H. cbn [d_data d_hint] in H.
  rewrite Hhint, dir_set_twice in H. cbv zeta.
  destruct (rep_get f (m_dir m) (m_id m) fm Hrep Hfm) as [Hfd Hfh]. rewrite Hhint in Hfh.
  set (a := m_id m) in *. set (es := d_data fm) in *. set (hs := hints_of es 0) in *. set (h := mkHint (l_ts l) (l_len l) (m_pos m) k) in *.
  set (fm2 := mkFile (es ++ [e]) (Some (hs ++ [h]))) in *. set (d2 := dir_set (m_dir m) a fm2) in *.
  set (f2 := fupd (fupd f (FData a) (Some (file_bytes es ++ enc_entry e))) (FHint a) (Some (hint_bytes hs ++ enc_hint h))) in *.
  assert (Hg2d : dir_get d2 a = Some fm2) by (unfold d2; rewrite dir_get_set, N.eqb_refl; reflexivity).
  assert (Hrep2 : rep f2 d2).
  { apply (rep_set f); cbn [fm2 d_data d_hint option_map]; [exact Hrep| | |]; unfold f2.
    - rewrite fupd_other by discriminate. rewrite fupd_same, file_bytes_app. reflexivity.
    - rewrite fupd_same, hint_bytes_app. reflexivity.
    - intros x H1 H2. rewrite !fupd_other by assumption. reflexivity. }
  (* the model's side of the step *)
  assert (Hcase : (m' = mkM d2 (m_idx m') (m_stats m') a (m_pos m + l_len l) (m_last m) (SWrite (FHint a) (enc_hint h) :: SWrite (FData a) (enc_entry e) :: m_trace m)
                   /\ m_pos m + l_len l <= c_max c) \/
                  (m' = mkM (d2 ++ [(m_last m + 1, mkFile [] (Some []))]) (m_idx m') (m_stats m') (m_last m + 1) 0 (m_last m + 1)
                            (SCreate (FHint (m_last m + 1)) :: SCreate (FData (m_last m + 1)) :: SFsync (FHint a) :: SFsync (FData a) ::
                             SWrite (FHint a) (enc_hint h) :: SWrite (FData a) (enc_entry e) :: m_trace m)
                   /\ dir_get d2 (m_last m + 1) = None)).
  { destruct (c_max c <? m_pos m + l_len l) eqn:Er.
    - unfold create_pair in H. destruct (dir_get d2 (m_last m + 1)) eqn:Eg; [discriminate|].
      rewrite (dir_set_new _ _ _ Eg) in H. inversion H; subst m'. right. split; reflexivity.
    - inversion H; subst m'. left. apply N.ltb_ge in Er. split; [reflexivity|exact Er]. }
  assert (Hgood2 : good (abs s) d2).
  { destruct Hcase as [[E _]|[E _]]; rewrite E in Hg'; cbn [m_dir] in Hg'; [exact Hg'|]. eapply good_prefix; [exact Hg'|reflexivity]. }
  split; [exact Hfm|]. split; [exact Hhint|]. split; [exact Hpos|]. split; [exact Hfd|]. split; [exact Hfh|]. split; [exact Hrep2|]. split; [exact Hgood2|].
  split.
  { destruct Hgood2 as (_ & Hok2 & _). exact (proj1 (Hok2 a fm2 (dir_get_In _ _ _ Hg2d))). }
  split.
  { intros Hwf. unfold trace_wf in Hwf. rewrite Forall_forall in Hwf. apply Hwf. apply -> in_rev.
    destruct Hcase as [[-> _]|[-> _]]; cbn [m_trace In]; auto 8. }
  destruct Hcase as [[E Hp]|[E Hn]]; rewrite E; cbn [m_dir m_id m_last m_pos m_trace rev]; rewrite <- ?app_assoc; [left; auto 6|right].
  destruct (create_pair_fs f2 d2 (m_last m + 1) Hrep2 Hn) as (Hnd & Hnh & _ & Hrep4).
  rewrite <- Hid in Hle. destruct (append_last (m_dir m) a fm e (Some (hs ++ [h])) Hs Hle Hfm) as (_ & _ & Hle2 & _).
  assert (Hgood3 : good (abs s) (d2 ++ [(m_last m + 1, empty_file)])) by (apply (good_app_empty _ _ a); [exact Hgood2|exact Hle2|unfold a; lia]).
  auto 12.
Qed.

Lemma merge_one_crash c s S m M k l m' M' s0 :
  LI s S m M -> LI s S m' M' -> merge_one c m k l = ROk m' ->
  trace_wf (rev (m_trace m')) -> TI s0 (abs s) m -> TI s0 (abs s) m'.
Proof.
  intros HLI HLI' Hone Hwf (f & Hwalk & Hrep).
  destruct (merge_one_fs c s S m M k l m' M' f HLI HLI' Hone Hrep) as (fm & e & Hfs). cbv zeta in Hfs.
  set (a := m_id m) in *. set (es := d_data fm) in *. set (hs := hints_of es 0) in *. set (h := mkHint (l_ts l) (l_len l) (m_pos m) k) in *.
  set (d2 := dir_set (m_dir m) a (mkFile (es ++ [e]) (Some (hs ++ [h])))) in *.
  set (f2 := fupd (fupd f (FData a) (Some (file_bytes es ++ enc_entry e))) (FHint a) (Some (hint_bytes hs ++ enc_hint h))) in *.
  destruct Hfs as (Hfm & Hhint & _ & _ & _ & Hrep2 & Hgood2 & _ & Hwfw & Hshape).
  pose proof (fun t f' => copy_walk (abs s) f (m_dir m) a fm hs (enc_entry e) _ t f' Hrep (LI_good s S m M HLI) Hfm Hhint (Hwfw Hwf)) as Hcopy. fold f2 in Hcopy.
  pose proof (rep_good_ok _ _ _ Hrep2 Hgood2) as Hok2. unfold TI.
  destruct Hshape as [(Hd & _ & _ & _ & Ht)|(Hd & _ & _ & _ & Ht & Hn & _ & _ & Hgood3 & Hrep4)]; rewrite Ht.
  - exists f2. split; [|rewrite Hd; exact Hrep2]. apply (walk_app _ _ _ _ _ _ Hwalk), Hcopy, walk_nil, Hok2.
  - (* rollover: both outputs are fsynced, then the next pair is created *)
    eexists. split; [|exact Hrep4]. apply (walk_app _ _ _ _ _ _ Hwalk), Hcopy.
    assert (Hf2d : f2 (FData a) = Some (file_bytes es ++ enc_entry e)) by (unfold f2; rewrite fupd_other by discriminate; apply fupd_same).
    apply (walk_fsync _ _ _ _ _ _ Hf2d Hok2), (walk_fsync _ f2 _ _ _ _ (fupd_same _ _ _) Hok2).
    apply (create_pair_walk _ _ d2 _ _ _ Hrep2 Hn Hgood2 Hgood3), walk_nil.
    exact (rep_good_ok _ _ _ Hrep4 (LI_good s S m' M' HLI')).
Qed.

Lemma merge_one_trace c m k l m' : merge_one c m k l = ROk m' -> exists pre, m_trace m' = pre ++ m_trace m.
Proof.
  unfold merge_one. destruct (read_loc (m_dir m) l) as [e|?|?]; try discriminate.
  destruct (append_data (m_dir m) (m_id m) e) as [[d1 p]|]; [|discriminate].
  destruct (c_max c <? m_pos m + l_len l).
  - destruct (create_pair _ _); [|discriminate]. intros H. inversion H; subst. cbn [m_trace].
    eexists [_; _; _; _; _; _]. reflexivity.
  - intros H. inversion H; subst. cbn [m_trace]. eexists [_; _]. reflexivity.
Qed.

(* an invariant of the copies that needs the written records to be representable: those of the trace
   so far are, if those of the whole trace are *)
Lemma merge_loop_wf c s S sel (X : mstate -> Prop) :
  (forall g, S g = mem g sel) -> (forall g, S g = true -> g <= s_last s) ->
  (forall m M k l m' M', LI s S m M -> LI s S m' M' -> merge_one c m k l = ROk m' -> trace_wf (rev (m_trace m')) -> X m -> X m') ->
  forall ord m M m', LI s S m M -> merge_loop c sel m ord = ROk m' -> trace_wf (rev (m_trace m')) -> X m -> X m'.
Proof.
  intros HS HSle Hstep ord m M m' HLI Hloop Hwf HX.
  apply (merge_loop_inv c s S sel (fun m => trace_wf (rev (m_trace m)) -> X m) HS HSle) with (ord := ord) (m := m) (M := M);
    [|exact HLI|exact Hloop|intros _; exact HX|exact Hwf].
  intros m1 M1 k l m2 M2 HLI1 HLI2 Hone HJ Hwf2. apply (Hstep m1 M1 k l m2 M2 HLI1 HLI2 Hone Hwf2), HJ.
  destruct (merge_one_trace c m1 k l m2 Hone) as (pre & E). unfold trace_wf in *. rewrite E, rev_app_distr in Hwf2. apply Forall_app in Hwf2. tauto.
Qed.

(* the unlink calls, forward *)
Fixpoint unlink_trace (d : dir) (sel : list N) : list syscall :=
  match sel with
  | [] => []
  | id :: sel' =>
    (match dir_get d id with
     | Some f => (match d_hint f with Some _ => [SUnlink (FHint id)] | None => [] end) ++ [SUnlink (FData id)]
     | None => []
     end) ++ unlink_trace (dir_remove d id) sel'
  end.

Lemma unlink_all_trace : forall sel d x t, rev (snd (unlink_all d x sel t)) = rev t ++ unlink_trace d sel.
Proof.
  induction sel as [|id sel IH]; intros d x t; cbn [unlink_all unlink_trace snd]; [rewrite app_nil_r; reflexivity|].
  rewrite IH. destruct (dir_get d id) as [f|]; [|reflexivity].
  cbn [rev]. rewrite rev_app_distr. destruct (d_hint f); cbn [rev app]; rewrite <- !app_assoc; reflexivity.
Qed.

Lemma unlink_trace_cons d id sel : unlink_trace d (id :: sel) = unlink_trace d [id] ++ unlink_trace (dir_remove d id) sel.
Proof. cbn [unlink_trace]. rewrite app_nil_r. reflexivity. Qed.

Lemma dir_filter_ext_in S1 S2 d : (forall j f, In (j, f) d -> S1 j = S2 j) -> dir_filter S1 d = dir_filter S2 d.
Proof.
  induction d as [|[i g] d IH]; intros H; cbn [dir_filter]; [reflexivity|].
  rewrite (H i g (or_introl eq_refl)), IH; [reflexivity|]. intros j f Hin. apply (H j f). right. exact Hin.
Qed.

Lemma dir_get_filter S d j : dir_get (dir_filter S d) j = if S j then None else dir_get d j.
Proof.
  induction d as [|[i g] d IH]; cbn [dir_filter dir_get]; [destruct (S j); reflexivity|].
  destruct (S i) eqn:Ei; cbn [dir_get]; rewrite IH.
  - destruct (N.eqb_spec i j) as [->|]; [rewrite Ei; reflexivity|reflexivity].
  - destruct (N.eqb_spec i j) as [->|]; [rewrite Ei; reflexivity|reflexivity].
Qed.

Lemma good_drop_hint m0 d id f : good m0 d -> dir_get d id = Some f -> good m0 (dir_set d id (mkFile (d_data f) None)).
Proof.
  intros (Hs & Hh & Hv) Hg. destruct (dir_set_split d id f Hg) as (d1 & d2 & Ed & Eset).
  assert (Hs' : sorted (dir_set d id (mkFile (d_data f) None))) by (apply (sorted_fst d); [rewrite Eset, Ed, !map_app; reflexivity|exact Hs]).
  split; [exact Hs'|]. split.
  - intros j h Hj. apply (In_dir_get _ _ _ Hs') in Hj. rewrite dir_get_set in Hj. destruct (id =? j); [injection Hj as <-; exact I|].
    exact (Hh j h (dir_get_In _ _ _ Hj)).
  - intros k. rewrite <- Hv, Eset, Ed, !log_of_dir_app. reflexivity.
Qed.

Lemma dir_remove_absent d id : dir_get d id = None -> dir_remove d id = d.
Proof.
  induction d as [|[i g] d IH]; cbn [dir_get dir_remove]; [reflexivity|]. destruct (i =? id); [discriminate|]. intros H. rewrite IH by exact H. reflexivity.
Qed.

Lemma dir_remove_set d id g : dir_remove (dir_set d id g) id = dir_remove d id.
Proof.
  induction d as [|[i x] d IH]; cbn [dir_set dir_remove]; [rewrite N.eqb_refl; reflexivity|].
  destruct (i =? id) eqn:E; cbn [dir_remove]; rewrite E; [reflexivity|]. rewrite IH. reflexivity.
Qed.

Lemma remove_step dm done id : sorted dm ->
  dir_remove (dir_filter (fun g => mem g done) dm) id = dir_filter (fun g => mem g (done ++ [id])) dm.
Proof.
  intros Hs. rewrite dir_remove_filter by (apply dir_filter_sorted; exact Hs). rewrite dir_filter_filter. apply dir_filter_ext.
  intros j. rewrite mem_app. f_equal. unfold mem. cbn [existsb]. rewrite orb_false_r. reflexivity.
Qed.

Lemma rep_remove img img' d a : sorted d -> rep img d -> img' (FData a) = None -> img' (FHint a) = None ->
  (forall x, x <> FData a -> x <> FHint a -> img' x = img x) -> rep img' (dir_remove d a).
Proof.
  intros Hs Hr Hd Hh Ho. rewrite (dir_remove_filter d a Hs). apply rep_iff. intros j. rewrite dir_get_filter.
  destruct (N.eqb_spec j a) as [->|Hne]; [split; assumption|]. rewrite !Ho by congruence. exact (proj1 (rep_iff img d) Hr j).
Qed.

(* one file goes: its hint file first, so that the data file is scanned record by record in between *)
Lemma unlink_file_crash m0 f d id : rep f d -> good m0 d -> good m0 (dir_remove d id) ->
  exists f', walk (fun i => img_ok i m0) f (unlink_trace d [id]) f' /\ rep f' (dir_remove d id).
Proof.
  intros Hr Hg Hg'. cbn [unlink_trace]. rewrite app_nil_r. pose proof (rep_good_ok _ _ _ Hr Hg) as Hok.
  destruct (dir_get d id) as [g|] eqn:Eg.
  2:{ exists f. rewrite (dir_remove_absent d id Eg). split; [apply walk_nil; exact Hok|exact Hr]. }
  destruct (rep_get f d id g Hr Eg) as [Hfd Hfh].
  (* the data file, once no hint file stands beside it *)
  assert (Hdata : forall f1 d1, rep f1 d1 -> good m0 d1 -> f1 (FData id) = Some (file_bytes (d_data g)) -> f1 (FHint id) = None ->
            dir_remove d1 id = dir_remove d id ->
            exists f', walk (fun i => img_ok i m0) f1 [SUnlink (FData id)] f' /\ rep f' (dir_remove d id)).
  { intros f1 d1 Hr1 Hg1 Hd1 Hh1 Erm.
    assert (Hr2 : rep (fupd f1 (FData id) None) (dir_remove d id)).
    { rewrite <- Erm. apply (rep_remove f1); [exact (proj1 Hg1)|exact Hr1|apply fupd_same| |intros x Hx _; apply fupd_other; exact Hx].
      rewrite fupd_other by discriminate. exact Hh1. }
    eexists. split; [|exact Hr2]. apply (walk_unlink _ _ _ _ _ _ Hd1 (rep_good_ok _ _ _ Hr1 Hg1)), walk_nil. exact (rep_good_ok _ _ _ Hr2 Hg'). }
  destruct (d_hint g) as [hs|] eqn:Eh; cbn [app option_map] in *; [|exact (Hdata f d Hr Hg Hfd Hfh eq_refl)].
  assert (Hr1 : rep (fupd f (FHint id) None) (dir_set d id (mkFile (d_data g) None))).
  { apply (rep_set f); [exact Hr| |apply fupd_same|intros x _ Hx; apply fupd_other; exact Hx]. rewrite fupd_other by discriminate. exact Hfd. }
  destruct (Hdata _ _ Hr1 (good_drop_hint m0 d id g Hg Eg)) as (f' & Hw & Hrep'); [|apply fupd_same|apply dir_remove_set|].
  { rewrite fupd_other by discriminate. exact Hfd. }
  exists f'. split; [|exact Hrep']. exact (walk_unlink _ _ _ _ _ _ Hfh Hok Hw).
Qed.

Lemma unlinks_crash m0 dm sel : sorted dm ->
  (forall done rest, sel = done ++ rest -> good m0 (dir_filter (fun g => mem g done) dm)) ->
  forall rest done, sel = done ++ rest -> forall f, rep f (dir_filter (fun g => mem g done) dm) ->
    exists f', walk (fun i => img_ok i m0) f (unlink_trace (dir_filter (fun g => mem g done) dm) rest) f' /\
               rep f' (dir_filter (fun g => mem g sel) dm).
Proof.
  intros Hs Hgood. induction rest as [|id rest IH]; intros done Esel f Hrep.
  - rewrite app_nil_r in Esel. subst done. exists f. split; [|exact Hrep].
    apply walk_nil. exact (rep_good_ok _ _ _ Hrep (Hgood sel [] (eq_sym (app_nil_r _)))).
  - assert (Esel' : sel = (done ++ [id]) ++ rest) by (rewrite <- app_assoc; exact Esel).
    pose proof (remove_step dm done id Hs) as Erem.
    destruct (unlink_file_crash m0 f _ id Hrep (Hgood _ _ Esel)) as (f1 & Hw1 & Hrep1); [rewrite Erem; exact (Hgood _ _ Esel')|].
    rewrite Erem in Hrep1. destruct (IH _ Esel' f1 Hrep1) as (f' & Hw & Hrep').
    rewrite unlink_trace_cons, Erem. exists f'. split; [exact (walk_app _ _ _ _ _ _ Hw1 Hw)|exact Hrep'].
Qed.

(* Every prefix of the ascending removal leaves a directory that recovers to the old map: among the
   files that hold records the removed ones are those up to the largest removed id, so their
   records are a prefix of the log, and no index entry points into it any more. *)
Lemma removal_good s sel0 bound m M done rest :
  let sel := sort_ids sel0 in
  let S := fun g => mem g sel in
  sel = done ++ rest -> Inv s ->
  (forall g, S g = hasrow (s_stats s) g && match bound with Some b => g <=? b | None => false end) ->
  LI s S m M ->
  (forall k l, iget (m_idx m) k = Some l -> S (l_fid l) = false) ->
  good (abs s) (dir_filter (fun g => mem g done) (m_dir m)).
Proof.
  intros sel S Esel HI HS HLI E1. set (R := fun g => mem g done).
  destruct (dir_filter_ok R (m_dir m) (m_id m) (LI_dir_ok _ _ _ _ HLI)) as (Hs2 & _ & Hh2).
  destruct HLI as (_ & _ & _ & _ & _ & _ & Hlogm & HMm & (D1 & _) & HVm).
  assert (HRS : forall g, R g = true -> S g = true).
  { intros g Hg. unfold S. rewrite Esel, mem_app. fold (R g). rewrite Hg. reflexivity. }
  split; [exact Hs2|]. split; [exact Hh2|].
  intros k. rewrite log_dir_filter, Hlogm.
  destruct (log_prefix_on (s_dir s) (fun g => existsb (fun r => g <=? r) done) R (Inv_sorted s HI)) as (LS & LR & Esplit & HLS & HLR).
  { intros a b Hab Hb. apply existsb_exists in Hb as (r & Hr & Hbr). apply existsb_exists. exists r. split; [exact Hr|].
    apply N.leb_le in Hbr. apply N.leb_le. lia. }
  { intros [[f p] e] Hin. cbn [fid_of]. unfold R. destruct (S f) eqn:ESf.
    - apply (lsorted_prefix_mem done rest); rewrite <- Esel; [apply sort_ids_sorted|exact ESf].
    - destruct (mem f done) eqn:ER; [apply HRS in ER; congruence|].
      destruct (existsb (fun r => f <=? r) done) eqn:ESb; [exfalso|reflexivity].
      (* below a removed file and holding records: selected *)
      apply existsb_exists in ESb as (r & Hr & Hfr). apply N.leb_le in Hfr.
      assert (HSr : S r = true) by (apply HRS, mem_In; exact Hr).
      rewrite HS in HSr, ESf. apply andb_true_iff in HSr as [_ Hb].
      rewrite (cons_hasrow _ _ _ _ f (Inv_cons s HI) eq_refl), (proj2 (has_file_In (slog s) f)) in ESf by eauto.
      destruct bound as [b|]; [|discriminate]. apply N.leb_le in Hb. apply N.leb_gt in ESf. lia. }
  fold (slog s) in Esplit. unfold abs. rewrite <- (HVm k), Esplit, <- app_assoc. rewrite Esplit, <- app_assoc in D1.
  assert (HMR : Forall (fun en => R (fid_of en) = false) M).
  { rewrite Forall_forall in *. intros en Hin. specialize (HMm en Hin). destruct (R (fid_of en)) eqn:E; [apply HRS in E; congruence|reflexivity]. }
  rewrite !filter_app, (filter_keep_none R LS HLS), (filter_keep_all R LR HLR), (filter_keep_all R M HMR). cbn [app].
  symmetry. apply (drop_prefix LS (LR ++ M) (m_idx m) R D1); [|exact HLS].
  intros k0 l Hk. specialize (E1 k0 l Hk). destruct (R (l_fid l)) eqn:E; [apply HRS in E; congruence|reflexivity].
Qed.

(* the three phases of a merge pass: the first output pair, the copies, the unlinks in ascending order;
   the trace forward, and the directories the unlinks pass through *)
Lemma merge_phases c s ord : Inv s -> merge_ready c s ord ->
  exists sel m M s',
    let S := fun g => mem g sel in
    let id0 := s_last s + 1 in
    let m0 := mkM (s_dir s ++ [(id0, mkFile [] (Some []))]) (s_idx s) (s_stats s) id0 0 id0 [SCreate (FHint id0); SCreate (FData id0)] in
    let n := m_last m + 1 in
    let d2 := dir_filter S (m_dir m) in
    (forall g, S g = true -> g <= s_last s) /\
    dir_get (s_dir s) id0 = None /\ good (abs s) (s_dir s ++ [(id0, empty_file)]) /\
    LI s S m0 [] /\ merge_loop c sel m0 ord = ROk m /\ LI s S m M /\
    (forall done rest, sel = done ++ rest -> good (abs s) (dir_filter (fun g => mem g done) (m_dir m))) /\
    dir_get d2 n = None /\
    merge c s ord = ROk (s', tt, rev (m_trace m) ++ SFsync (FData (m_id m)) :: SFsync (FHint (m_id m)) ::
                                 unlink_trace (m_dir m) sel ++ [SCreate (FData n)]) /\
    s_dir s' = d2 ++ [(n, empty_file)] /\ Inv s' /\
    s_last s' = n /\ s_active s' = n /\ s_written s' = 0.
Proof.
  intros HI Hready.
  destruct (merge_prep c s ord HI Hready) as (sel0 & bound & m & M & Hsel & HS & HSle & Hcp & HLI0 & Hloop & HLI & E1 & _).
  destruct (merge_ok c s ord HI Hready) as (s' & t & Hm & HI' & _). cbv zeta in *.
  exists (sort_ids sel0), m, M, s'.
  pose proof (Inv_dir_ok s HI) as (_ & Hle & _).
  split; [exact HSle|]. split; [apply (ids_le_get_none _ _ _ Hle); lia|]. split.
  { apply (good_app_empty _ _ (s_last s)); [exact (inv_good s HI)|exact Hle|lia]. }
  split; [exact HLI0|]. split; [exact Hloop|]. split; [exact HLI|].
  split; [intros done rest Esel; exact (removal_good s sel0 bound m M done rest Esel HI HS HLI E1)|].
  (* the pass as [merge] computes it *)
  pose proof Hm as Hm2. unfold merge, merge_with in Hm2. rewrite Hsel, (Hready sel0 Hsel), Hcp, Hloop in Hm2. cbn [negb] in Hm2.
  set (t1 := SFsync (FHint (m_id m)) :: SFsync (FData (m_id m)) :: m_trace m) in Hm2.
  pose proof (unlink_all_spec (sort_ids sel0) (m_dir m) (m_stats m) t1 (proj1 (LI_dir_ok _ _ _ _ HLI))) as Hun.
  pose proof (unlink_all_trace (sort_ids sel0) (m_dir m) (m_stats m) t1) as Htr.
  destruct (unlink_all (m_dir m) (m_stats m) (sort_ids sel0) t1) as [[d2 x2] t2]. destruct Hun as [-> _]. cbn [snd] in Htr.
  destruct (new_active _) as [[s3 t3]| |] eqn:Hna; try discriminate. injection Hm2 as <- <-.
  destruct (new_active_inv _ _ _ Hna) as (Hn2 & -> & ->). cbn [s_dir s_last] in Hn2.
  split; [exact Hn2|]. split; [|auto 8]. rewrite Hm, Htr. unfold t1. cbn [rev]. rewrite <- !app_assoc. reflexivity.
Qed.

(* after the copies: both outputs are fsynced, then the selected files go *)
Lemma merge_tail s sel m M f : LI s (fun g => mem g sel) m M ->
  (forall done rest, sel = done ++ rest -> good (abs s) (dir_filter (fun g => mem g done) (m_dir m))) -> rep f (m_dir m) ->
  exists f', walk (fun i => img_ok i (abs s)) f (SFsync (FData (m_id m)) :: SFsync (FHint (m_id m)) :: unlink_trace (m_dir m) sel) f' /\
             rep f' (dir_filter (fun g => mem g sel) (m_dir m)).
Proof.
  intros HLI Hgood Hrep. destruct (LI_out _ _ _ _ HLI) as (fm & Hfm & Hhm & _).
  destruct (rep_get f _ _ fm Hrep Hfm) as [Hfd Hfh]. rewrite Hhm in Hfh.
  pose proof (rep_good_ok _ _ _ Hrep (LI_good _ _ _ _ HLI)) as Hok.
  destruct (unlinks_crash (abs s) (m_dir m) sel (proj1 (LI_dir_ok _ _ _ _ HLI)) Hgood sel [] eq_refl f) as (f' & Hw & Hrep').
  { rewrite dir_filter_none by reflexivity. exact Hrep. }
  rewrite dir_filter_none in Hw by reflexivity.
  exists f'. split; [|exact Hrep']. exact (walk_fsync _ _ _ _ _ _ Hfd Hok (walk_fsync _ _ _ _ _ _ Hfh Hok Hw)).
Qed.

Theorem merge_safe c s ord : Inv s -> merge_ready c s ord -> step_safe_at c s (OMerge ord).
Proof.
  intros HI Hready s0 Hrep0. cbn [step].
  destruct (merge_phases c s ord HI Hready) as (sel & m & M & s' & Hph). cbv zeta in Hph.
  set (S := fun g => mem g sel) in *. set (id0 := s_last s + 1) in *.
  set (m0 := mkM (s_dir s ++ [(id0, mkFile [] (Some []))]) (s_idx s) (s_stats s) id0 0 id0 [SCreate (FHint id0); SCreate (FData id0)]) in *.
  set (d2 := dir_filter S (m_dir m)) in *. set (n := m_last m + 1) in *.
  destruct Hph as (HSle & Hn0 & Hg1 & HLI0 & Hloop & HLI & Hgood_all & Hn2 & Hm & Hd' & HI' & _).
  rewrite Hm. intros Hwf. apply walk_rep.
  assert (Hwfm : trace_wf (rev (m_trace m))) by (apply Forall_app in Hwf; apply Hwf).
  (* phase 0: the first pair of output files *)
  assert (TI0 : TI s0 (abs s) m0).
  { destruct (create_pair_fs s0 (s_dir s) id0 Hrep0 Hn0) as (_ & _ & _ & Hr2). eexists. split; [|exact Hr2].
    apply (create_pair_walk _ _ _ _ _ _ Hrep0 Hn0 (inv_good s HI) Hg1), walk_nil. exact (rep_good_ok _ _ _ Hr2 (LI_good s S m0 [] HLI0)). }
  (* phase 1: the copies *)
  destruct (merge_loop_wf c s S sel (TI s0 (abs s)) (fun g => eq_refl) HSle (fun m1 M1 k l m2 M2 => merge_one_crash c s S m1 M1 k l m2 M2 s0) ord m0 [] m HLI0 Hloop Hwfm TI0)
    as (f & Hwalk & Hrepm).
  (* phase 2: the unlinks, then the next active file *)
  destruct (merge_tail s sel m M f HLI Hgood_all Hrepm) as (f' & Hw2 & Hrep'). fold S d2 in Hrep'.
  destruct (rep_after_create f' d2 n Hrep' Hn2) as [_ Hr3]. rewrite <- Hd' in Hr3.
  eexists. split; [|exact Hr3].
  apply (walk_app _ _ _ f); [exact (walk_mono _ _ _ _ _ (fun i => @or_introl _ _) Hwalk)|].
  apply (walk_app _ _ (SFsync _ :: SFsync _ :: _) f' [_]); [exact (walk_mono _ _ _ _ _ (fun i => @or_introl _ _) Hw2)|].
  apply walk_create; [exact (proj1 (rep_none f' d2 n Hrep' Hn2))| |apply walk_nil; right; exact (img_ok_rep _ s' HI' Hr3)].
  left. exact (rep_good_ok _ _ _ Hrep' (Hgood_all sel [] (eq_sym (app_nil_r _)))).
Qed.

Theorem step_safe c s o : Inv s -> op_ready c s o -> step_safe_at c s o.
Proof.
  intros HI Hr. destruct (is_merge o) eqn:Em; [|apply nomerge_step_safe; assumption].
  destruct o; try discriminate. apply merge_safe; assumption.
Qed.

Theorem crash_safe c ops s0 : run_ready c init ops -> rep s0 (s_dir init) -> trace_wf (snd (run c init ops)) ->
  forall img, image_of s0 (snd (run c init ops)) img ->
    exists n, (n <= length ops)%nat /\ img_ok img (abs (state_after c init ops n)).
Proof.
  intros Hr Hrep Hwf. apply script_crash_safe; [exact (proj1 init_inv)|exact Hr|exact Hrep|exact Hwf|].
  intros s' o HI Hop _. apply step_safe; assumption.
Qed.

(* the bytes on disk after any script are the encodings of the model's records *)
Theorem bytes_on_disk c ops s0 : run_ready c init ops -> rep s0 (s_dir init) -> trace_wf (snd (run c init ops)) ->
  exists s1, fs_run s0 (snd (run c init ops)) = Some s1 /\ rep s1 (s_dir (fst (fst (run c init ops)))).
Proof.
  intros Hr Hrep Hwf. destruct (script_crash_safe c ops init s0 (proj1 init_inv) Hr Hrep Hwf) as [H _]; [|exact H].
  intros s' o HI Hop _. apply step_safe; assumption.
Qed.

(* a crash DURING operation [o], after [ops1] were acknowledged *)
Lemma op_walk c ops1 o s0 :
  run_ready c init (ops1 ++ [o]) -> rep s0 (s_dir init) -> trace_wf (snd (run c init (ops1 ++ [o]))) ->
  let s1 := fst (fst (run c init ops1)) in
  exists f1 f2, fs_run s0 (snd (run c init ops1)) = Some f1 /\
    walk (fun img => img_ok img (abs s1) \/ img_ok img (abs (fst (fst (step c s1 o))))) f1 (snd (step c s1 o)) f2.
Proof.
  intros Hready Hrep Hwf. cbv zeta. destruct (run_snoc c init ops1 o (proj1 init_inv) Hready Hwf) as (Hr1 & HI1 & Hop & Hwf1 & Hwf2).
  destruct (bytes_on_disk c ops1 s0 Hr1 Hrep Hwf1) as (f1 & Hrun & Hrep1).
  pose proof (step_safe c _ o HI1 Hop f1 Hrep1) as Hst. destruct (step c _ o) as [[s2 r2] t2].
  destruct (proj2 (walk_rep _ _ _ _) (Hst Hwf2)) as (f2 & Hw & _). exists f1, f2. auto.
Qed.

Theorem crash_during_op c ops1 o s0 :
  run_ready c init (ops1 ++ [o]) -> rep s0 (s_dir init) -> trace_wf (snd (run c init (ops1 ++ [o]))) ->
  let s1 := fst (fst (run c init ops1)) in
  exists f1, fs_run s0 (snd (run c init ops1)) = Some f1 /\
    forall img, image_of f1 (snd (step c s1 o)) img ->
      img_ok img (abs s1) \/ img_ok img (abs (fst (fst (step c s1 o)))).
Proof.
  intros Hready Hrep Hwf. destruct (op_walk c ops1 o s0 Hready Hrep Hwf) as (f1 & f2 & Hrun & _ & Himg). exists f1. auto.
Qed.

Lemma rep_sizes s d id f : rep s d -> dir_get d id = Some f -> exists b, s (FData id) = Some b /\ blen b = data_size (d_data f).
Proof.
  intros Hr Hg. destruct (rep_get s d id f Hr Hg) as [H _]. eexists. split; [exact H|apply blen_file_bytes].
Qed.

Lemma fs_run_prefix : forall t s s' n, fs_run s t = Some s' -> exists sn, fs_run s (firstn n t) = Some sn.
Proof.
  induction t as [|c t IH]; intros s s' n H; [rewrite firstn_nil; cbn; eauto|]. destruct n as [|n]; [cbn; eauto|].
  cbn [firstn fs_run] in *. destruct (fs_step s c) as [s1|]; [|discriminate]. eapply IH; exact H.
Qed.

(* A call that fails has no effect, and the error paths of set / delete / reopen / merge issue no further
   calls: the directory after operation [o] failed at its (n+1)-th call is the file system after the first
   [n] calls of [o].  Restarting from there recovers every earlier operation, and [o] entirely or not. *)
Theorem fault_then_restart c ops1 o s0 n :
  run_ready c init (ops1 ++ [o]) -> rep s0 (s_dir init) -> trace_wf (snd (run c init (ops1 ++ [o]))) ->
  let s1 := fst (fst (run c init ops1)) in
  exists f1 fn, fs_run s0 (snd (run c init ops1)) = Some f1 /\ fs_run f1 (firstn n (snd (step c s1 o))) = Some fn /\
    (img_ok fn (abs s1) \/ img_ok fn (abs (fst (fst (step c s1 o))))).
Proof.
  intros Hready Hrep Hwf. destruct (op_walk c ops1 o s0 Hready Hrep Hwf) as (f1 & f2 & Hrun & Hrun2 & Himgs).
  destruct (fs_run_prefix _ f1 f2 n Hrun2) as (fn & Hfn). exists f1, fn. split; [exact Hrun|]. split; [exact Hfn|].
  apply Himgs. exact (img_boundary _ _ _ _ _ (eq_sym (firstn_skipn n _)) Hfn).
Qed.
