(* Store/Merge.v — the parts of a merge pass: one copy keeps the loop invariant [LI], for every
   threshold setting (the selection is whatever [select] computes, and it is the rows up to a
   bound); the selected records are a prefix of the log, and a prefix no key resolves into can be
   dropped.  Store/Sizes.v puts them together (C05, C13). *)
From BC Require Import Store.Engine Store.Log Store.Step Store.Cons Store.Inv Store.Refine Store.MergeLemmas.
Open Scope N_scope.

Definition fid_of (en : lentry) : N := let '(f, _, _) := en in f.

Lemma step_merge S L i x f p e :
  wfL (L ++ [(f, p, e)]) -> cons_ex S L i x -> e_val e <> None ->
  (match iget i (e_key e) with Some prev => S (l_fid prev) = true | None => True end) ->
  cons_ex S (L ++ [(f, p, e)]) (idx_step i (f, p, e)) (aset x f (add_live (sget0 x f))).
Proof.
  intros Hw HC Hv Hprev. apply (cons_ex_snoc S L i x _ f p e Hw HC); intros g Hg.
  - assert (Ho : old_in (iget i (e_key e)) g = false).
    { destruct (iget i (e_key e)) as [prev|]; [|reflexivity]. cbn [old_in]. apply N.eqb_neq. congruence. }
    rewrite Ho. cbn [is_value]. destruct (e_val e); [|congruence]. rewrite sget0_aset, (N.eqb_sym f g).
    destruct (N.eqb_spec g f) as [->|]; cbn [andb negb b2n add_live live dead dead_bytes]; lia.
  - rewrite sget_aset. destruct (N.eqb_spec g f) as [->|]; [split; [discriminate|tauto]|]. split; [auto|tauto].
Qed.

(* of the copy loop over the selection [S], begun in [s]: the log is that of [s] followed by the copies
   [M], which lie outside [S] and change no key's latest value; the index is exact, the counters are
   exact outside [S]; [m_id m] is the newest file, has a hint file, and [m_pos m] is its size *)
Definition LI (s : st) (S : N -> bool) (m : mstate) (M : list lentry) : Prop :=
  sorted (m_dir m) /\ ids_le (m_dir m) (m_last m) /\
  (forall id f, In (id, f) (m_dir m) -> hints_ok f) /\
  m_id m = m_last m /\ s_last s < m_id m /\
  (exists fm hs, dir_get (m_dir m) (m_id m) = Some fm /\ d_hint fm = Some hs /\ m_pos m = data_size (d_data fm)) /\
  log_of_dir (m_dir m) = slog s ++ M /\
  Forall (fun en => S (fid_of en) = false) M /\
  cons_ex S (slog s ++ M) (m_idx m) (m_stats m) /\
  (forall k, lastval (slog s ++ M) k None = lastval (slog s) k None).

Lemma LI_intro s S m M :
  dir_ok (m_dir m) (m_last m) -> m_id m = m_last m -> s_last s < m_id m ->
  (exists fm hs, dir_get (m_dir m) (m_id m) = Some fm /\ d_hint fm = Some hs /\ m_pos m = data_size (d_data fm)) ->
  log_of_dir (m_dir m) = slog s ++ M -> Forall (fun en => S (fid_of en) = false) M ->
  cons_ex S (slog s ++ M) (m_idx m) (m_stats m) -> (forall k, lastval (slog s ++ M) k None = lastval (slog s) k None) ->
  LI s S m M.
Proof. intros (Hs & Hle & Hh) H1 H2 H3 H4 H5 H6 H7. unfold LI. auto 12. Qed.

Lemma LI_dir_ok s S m M : LI s S m M -> dir_ok (m_dir m) (m_id m).
Proof. unfold LI, dir_ok. intros (Hs & Hle & Hh & -> & _). auto. Qed.

Lemma LI_cons s S m M : LI s S m M -> cons_ex S (slog s ++ M) (m_idx m) (m_stats m).
Proof. intros H. apply H. Qed.

Lemma LI_out s S m M : LI s S m M ->
  exists fm, dir_get (m_dir m) (m_id m) = Some fm /\ d_hint fm = Some (hints_of (d_data fm) 0) /\ m_pos m = data_size (d_data fm).
Proof.
  intros (_ & _ & Hh & _ & _ & (fm & hs & Hfm & Hhint & Hpos) & _). exists fm. split; [exact Hfm|]. split; [|exact Hpos].
  destruct (hints_ok_some fm hs (Hh _ _ (dir_get_In _ _ _ Hfm)) Hhint) as [<- _]. exact Hhint.
Qed.

Lemma merge_one_ok c s S m M k l :
  LI s S m M -> (forall g, S g = true -> g <= s_last s) ->
  iget (m_idx m) k = Some l -> S (l_fid l) = true ->
  exists m' M', merge_one c m k l = ROk m' /\ LI s S m' M' /\
    exists e, let en := (m_id m, m_pos m, e) in
      M' = M ++ [en] /\ e_key e = k /\ e_val e <> None /\ entry_size e = l_len l /\ S (m_id m) = false /\
      wfL ((slog s ++ M) ++ [en]) /\ m_idx m' = idx_step (m_idx m) en /\
      m_stats m' = aset (m_stats m) (m_id m) (add_live (sget0 (m_stats m) (m_id m))).
Proof.
  intros HLI HSle Hk HSl. pose proof (LI_dir_ok _ _ _ _ HLI) as (Hs & Hle & Hh).
  destruct HLI as (_ & _ & _ & Hid & Hgt & (fm & hs & Hfm & Hhint & Hpos) & Hlog & HM & HC & HV).
  (* [l] is where the log has the latest record [e] of [k].  The copy is one more entry of the log:
     [step_merge] moves index and counters over it, [hints_ok_snoc] the output's hint file, and since
     it repeats the latest value of [k] no key's [lastval] changes. *)
  assert (Hll : lastloc (slog s ++ M) k None = Some l) by (rewrite <- (proj1 HC); exact Hk).
  destruct (lastloc_In _ _ _ Hll) as (f & p & e & Hin & -> & Hkey & Hval & Hlv).
  unfold merge_one. rewrite (read_loc_log (m_dir m) f p e Hs) by (rewrite Hlog; exact Hin).
  unfold append_data. rewrite Hfm. unfold append_hint. rewrite dir_get_set, N.eqb_refl. cbn [d_data d_hint loc_of l_ts l_len].
  rewrite Hhint, dir_set_twice.
  set (en := (m_id m, m_pos m, e)). set (h := mkHint (e_ts e) (entry_size e) (m_pos m) k).
  destruct (append_last (m_dir m) (m_id m) fm e (Some (hs ++ [h])) Hs Hle Hfm) as (Hlog2 & Hs2 & Hle2 & Hget2 & Hin2).
  set (fm2 := mkFile (d_data fm ++ [e]) (Some (hs ++ [h]))) in *. set (d2 := dir_set (m_dir m) (m_id m) fm2) in *.
  assert (HSm : S (m_id m) = false).
  { destruct (S (m_id m)) eqn:E; [|reflexivity]. apply HSle in E. lia. }
  assert (Hlog2' : log_of_dir d2 = slog s ++ (M ++ [en])).
  { rewrite Hlog2, Hlog, <- app_assoc, <- Hpos. reflexivity. }
  assert (Hwf : wfL ((slog s ++ M) ++ [en])).
  { rewrite <- app_assoc, <- Hlog2'. apply wfL_log_of_dir. exact Hs2. }
  assert (Hcons : cons_ex S (slog s ++ M ++ [en]) (idx_step (m_idx m) en)
                          (aset (m_stats m) (m_id m) (add_live (sget0 (m_stats m) (m_id m))))).
  { rewrite app_assoc. apply step_merge; [exact Hwf|exact HC|exact Hval|]. rewrite Hkey, Hk. exact HSl. }
  replace (aset (m_idx m) k _) with (idx_step (m_idx m) en)
    by (cbn [idx_step en loc_of]; destruct (e_val e); [rewrite Hkey; reflexivity|congruence]).
  assert (Hh2 : forall id g, In (id, g) d2 -> hints_ok g).
  { intros id g Hing. destruct (Hin2 id g Hing) as [[Hin' _]|[_ ->]]; [exact (Hh _ _ Hin')|].
    subst fm2 h. rewrite Hpos, <- Hkey. apply hints_ok_snoc; [exact (Hh _ _ (dir_get_In _ _ _ Hfm))|exact Hhint|exact Hval]. }
  assert (HV2 : forall k', lastval (slog s ++ M ++ [en]) k' None = lastval (slog s) k' None).
  { intros k'. rewrite app_assoc, lastval_app. cbn [lastval en]. rewrite Hkey.
    destruct (beq_spec k' k) as [->|]; [|apply HV]. rewrite <- Hlv. apply HV. }
  assert (HM2 : Forall (fun en0 => S (fid_of en0) = false) (M ++ [en])).
  { apply Forall_app. split; [exact HM|]. constructor; [exact HSm|constructor]. }
  destruct (c_max c <? m_pos m + entry_size e).
  - (* the merge output rolls over *)
    assert (Hlt : m_id m < m_last m + 1) by lia.
    destruct (dir_snoc_fresh d2 (m_last m + 1) (mkFile [] (Some [])) Hs2 (ids_le_lt _ _ _ Hle2 Hlt) Hh2)
      as (Hnone & Hset & Hok & Hget); [exact hints_ok_empty|].
    unfold create_pair. rewrite Hnone, Hset. eexists _, (M ++ [en]). split; [reflexivity|]. split.
    + apply LI_intro; cbn [m_dir m_idx m_stats m_id m_pos m_last]; try assumption; [reflexivity|lia| |].
      * exists (mkFile [] (Some [])), []. auto.
      * rewrite log_of_dir_app. cbn [log_of_dir log_file d_data]. rewrite !app_nil_r. exact Hlog2'.
    + exists e. cbn [m_idx m_stats]. auto 10.
  - eexists _, (M ++ [en]). split; [reflexivity|]. split.
    + apply LI_intro; cbn [m_dir m_idx m_stats m_id m_pos m_last]; try assumption.
      * rewrite <- Hid. split; [exact Hs2|]. split; [exact Hle2|exact Hh2].
      * exists fm2, (hs ++ [h]). split; [exact Hget2|]. split; [reflexivity|].
        cbn [fm2 d_data]. rewrite data_size_app, <- Hpos. cbn [data_size]. lia.
    + exists e. cbn [m_idx m_stats]. auto 10.
Qed.

Lemma merge_one_spec c m k l m' : merge_one c m k l = ROk m' ->
  exists e d1 p, read_loc (m_dir m) l = ROk e /\ append_data (m_dir m) (m_id m) e = Some (d1, p) /\
    let d2 := append_hint d1 (m_id m) (mkHint (l_ts l) (l_len l) (m_pos m) k) in
    m_idx m' = aset (m_idx m) k (mkLoc (m_id m) (m_pos m) (l_len l) (l_ts l)) /\
    m_stats m' = aset (m_stats m) (m_id m) (add_live (sget0 (m_stats m) (m_id m))) /\
    (m_dir m' = d2 /\ m_id m' = m_id m \/ create_pair d2 (m_last m + 1) = Some (m_dir m') /\ m_id m' = m_last m + 1).
Proof.
  unfold merge_one. intros H.
  destruct (read_loc (m_dir m) l) as [e| |]; try discriminate.
  destruct (append_data (m_dir m) (m_id m) e) as [[d1 p]|] eqn:Ea; [|discriminate].
  exists e, d1, p. split; [reflexivity|]. split; [exact Ea|]. cbv zeta.
  destruct (c_max c <? m_pos m + l_len l).
  - destruct (create_pair _ (m_last m + 1)) as [d3|]; [|discriminate]. injection H as <-.
    split; [reflexivity|]. split; [reflexivity|]. right. split; reflexivity.
  - injection H as <-. split; [reflexivity|]. split; [reflexivity|]. left. split; reflexivity.
Qed.

(* [P ord m]: the loop is about to run [ord] from [m]; [Q] speaks of its outcome. *)
Lemma merge_loop_ind (P : list bytes -> mstate -> Prop) (Q : res mstate -> Prop) c sel :
  (forall m, P [] m -> Q (ROk m)) ->
  (forall k ord m, P (k :: ord) m ->
     match iget (m_idx m) k with
     | Some l => if mem (l_fid l) sel
                 then match merge_one c m k l with ROk m' => P ord m' | r => Q r end
                 else P ord m
     | None => P ord m
     end) ->
  forall ord m, P ord m -> Q (merge_loop c sel m ord).
Proof.
  intros Hnil Hstep. induction ord as [|k ord IH]; intros m HP; cbn [merge_loop]; [auto|].
  specialize (Hstep k ord m HP). destruct (iget (m_idx m) k) as [l|]; [|auto].
  destruct (mem (l_fid l) sel); [|auto]. destruct (merge_one c m k l); auto.
Qed.

Lemma merge_loop_keeps (P : mstate -> Prop) c sel :
  (forall m k l m', P m -> iget (m_idx m) k = Some l -> mem (l_fid l) sel = true -> merge_one c m k l = ROk m' -> P m') ->
  forall ord m m', P m -> merge_loop c sel m ord = ROk m' -> P m'.
Proof.
  intros Hone ord m m' HP. revert m'.
  apply (merge_loop_ind (fun _ m => P m) (fun r => forall m', r = ROk m' -> P m') c sel); [| |exact HP].
  - intros m0 H0 m' E. injection E as <-. exact H0.
  - intros k ord' m0 H0. destruct (iget (m_idx m0) k) as [l|] eqn:Ek; [|exact H0]. destruct (mem (l_fid l) sel) eqn:Em; [|exact H0].
    destruct (merge_one c m0 k l) as [m1| |] eqn:E1; [exact (Hone m0 k l m1 H0 Ek Em E1)|discriminate..].
Qed.

Lemma merge_loop_inv c s S sel (J : mstate -> Prop) :
  (forall g, S g = mem g sel) -> (forall g, S g = true -> g <= s_last s) ->
  (forall m M k l m' M', LI s S m M -> LI s S m' M' -> merge_one c m k l = ROk m' -> J m -> J m') ->
  forall ord m M m', LI s S m M -> merge_loop c sel m ord = ROk m' -> J m -> J m'.
Proof.
  intros HS HSle Hstep ord m M m' HLI H HJ.
  apply (merge_loop_keeps (fun m => (exists M, LI s S m M) /\ J m) c sel) with (ord := ord) (m := m) (m' := m'); [|eauto|exact H].
  intros m1 k l m2 [(M1 & HLI1) HJ1] Ek Em E1. rewrite <- HS in Em.
  destruct (merge_one_ok c s S m1 M1 k l HLI1 HSle Ek Em) as (m2' & M2 & H1 & HLI2 & _). rewrite E1 in H1. injection H1 as <-.
  split; [eauto|exact (Hstep m1 M1 k l m2 M2 HLI1 HLI2 E1 HJ1)].
Qed.

Lemma has_file_dir_get d g : sorted d -> has_file (log_of_dir d) g = true -> exists f, dir_get d g = Some f /\ d_data f <> [].
Proof.
  intros Hs H. apply has_file_In in H as (p & e & Hin).
  destruct (log_of_dir_In d Hs g p e Hin) as (h & Hget & Hin'). exists h. split; [exact Hget|].
  intros E. rewrite E in Hin'. destruct Hin'.
Qed.

Lemma dir_get_has_file d g f : dir_get d g = Some f -> d_data f <> [] -> has_file (log_of_dir d) g = true.
Proof.
  induction d as [|[i h] d IH]; cbn [dir_get log_of_dir]; [discriminate|]. intros Hf Hne. rewrite has_file_app.
  destruct (N.eqb_spec i g) as [->|_]; [|rewrite (IH Hf Hne); apply orb_true_r].
  injection Hf as ->. destruct (d_data f) as [|e es]; [congruence|].
  cbn [log_file has_file existsb in_file]. rewrite N.eqb_refl. reflexivity.
Qed.

Definition hasrow (x : stats_t) (g : N) : bool := match sget x g with Some _ => true | None => false end.

Lemma cons_hasrow S L i x g : cons_ex S L i x -> S g = false -> hasrow x g = has_file L g.
Proof.
  intros (_ & _ & C3) Hg. specialize (C3 g Hg). unfold hasrow.
  destruct (sget x g), (has_file L g); try reflexivity; [destruct C3 as [_ C3]|destruct C3 as [C3 _]]; discriminate C3; reflexivity.
Qed.

Lemma mem_stat_ids x g : mem g (stat_ids x) = hasrow x g.
Proof.
  apply eq_true_iff_eq. unfold mem, stat_ids, akeys, hasrow, sget.
  rewrite (existsb_keq N.eqb N.eqb_spec), (akeys_aux_In N.eqb N.eqb_spec). cbn [In].
  destruct (aget N.eqb x g); intuition congruence.
Qed.

Lemma select_shape c s sel0 : select c s = ROk sel0 ->
  exists bound, forall g, mem g sel0 = hasrow (s_stats s) g && match bound with Some b => g <=? b | None => false end.
Proof.
  unfold select. intros H.
  destruct (fold_left _ (stat_ids (s_stats s)) (ROk [])) as [sel| |]; try discriminate.
  destruct (nmax sel) as [newest|]; injection H as <-.
  - exists (Some newest). intros g. rewrite mem_filter, mem_stat_ids. reflexivity.
  - exists None. intros g. cbn. rewrite andb_false_r. reflexivity.
Qed.

Lemma select_total c s : (forall g, hasrow (s_stats s) g = true -> dir_get (s_dir s) g <> None) ->
  exists sel0, select c s = ROk sel0.
Proof.
  intros Hrows. unfold select. set (step := fun (acc : res (list N)) (id : N) => _).
  assert (Hfold : forall ids acc, (forall id, In id ids -> hasrow (s_stats s) id = true) ->
                                  exists sel, fold_left step ids (ROk acc) = ROk sel).
  { induction ids as [|id ids IH]; intros acc Hin; cbn [fold_left]; [eauto|].
    unfold step at 2. destruct (dir_get (s_dir s) id) eqn:E; [|destruct (Hrows id (Hin id (or_introl eq_refl)) E)].
    destruct (meets c _ _); apply IH; intros; apply Hin; right; assumption. }
  destruct (Hfold (stat_ids (s_stats s)) []) as (sel & ->).
  { intros id Hin. rewrite <- mem_stat_ids. apply existsb_exists. exists id. split; [exact Hin|apply N.eqb_refl]. }
  destruct (nmax sel); eauto.
Qed.

Lemma select_ok c s : Inv s ->
  exists sel0 bound, select c s = ROk sel0 /\
    forall g, mem g sel0 = hasrow (s_stats s) g && match bound with Some b => g <=? b | None => false end.
Proof.
  intros HI. destruct (select_total c s) as (sel0 & Hsel).
  { intros g Hg. rewrite (cons_hasrow _ _ _ _ g (Inv_cons s HI) eq_refl) in Hg.
    destruct (has_file_dir_get _ _ (Inv_sorted s HI) Hg) as (f & -> & _). discriminate. }
  destruct (select_shape c s sel0 Hsel) as (bound & Hb). eauto.
Qed.

Lemma log_prefix_on d (Sb R : N -> bool) :
  sorted d -> (forall i j, i <= j -> Sb j = true -> Sb i = true) ->
  (forall en, In en (log_of_dir d) -> R (fid_of en) = Sb (fid_of en)) ->
  exists LS LR, log_of_dir d = LS ++ LR /\ Forall (fun en => R (fid_of en) = true) LS /\ Forall (fun en => R (fid_of en) = false) LR.
Proof.
  intros Hs Hmono. induction d as [|[i f] d IH]; intros Hag; [exists [], []; repeat split; constructor|].
  destruct Hs as [Hgt Hs]. cbn [log_of_dir] in *.
  assert (Hi : Forall (fun en => R (fid_of en) = Sb i) (log_file i (d_data f) 0)).
  { apply Forall_forall. intros [[f' p'] e'] Hin. rewrite Hag by (apply in_or_app; left; exact Hin).
    apply log_file_bounds in Hin as [-> _]. reflexivity. }
  destruct (Sb i) eqn:Ei.
  - destruct (IH Hs) as (LS & LR & E & HS & HR); [intros en Hin; apply Hag, in_or_app; right; exact Hin|].
    exists (log_file i (d_data f) 0 ++ LS), LR. rewrite E, app_assoc. repeat split; [|exact HR].
    apply Forall_app. split; [exact Hi|exact HS].
  - (* the ids that follow are larger, hence outside [Sb] as well *)
    exists [], (log_file i (d_data f) 0 ++ log_of_dir d). repeat split; [constructor|].
    apply Forall_app. split; [exact Hi|]. apply Forall_forall. intros [[f' p'] e'] Hin.
    rewrite Hag by (apply in_or_app; right; exact Hin). cbn [fid_of].
    apply log_of_dir_ids, (proj1 (ids_gt_iff _ _) Hgt) in Hin.
    destruct (Sb f') eqn:Ef; [|reflexivity]. rewrite (Hmono i f') in Ei; [discriminate|lia|exact Ef].
Qed.

Lemma filter_keep_all S L : Forall (fun en => S (fid_of en) = false) L -> filter (keep S) L = L.
Proof.
  induction 1 as [|[[f p] e] L Hx HL IH]; [reflexivity|]. cbn [filter keep fid_of] in *. rewrite Hx. cbn [negb]. rewrite IH. reflexivity.
Qed.
Lemma filter_keep_none S L : Forall (fun en => S (fid_of en) = true) L -> filter (keep S) L = [].
Proof.
  induction 1 as [|[[f p] e] L Hx HL IH]; [reflexivity|]. cbn [filter keep fid_of] in *. rewrite Hx. cbn [negb]. exact IH.
Qed.

(* Dropping a prefix of the log changes what no key resolves to, once no key resolves into it: a
   key with a record in the rest never looked at the prefix, and a key without one resolved into
   the prefix or to nothing. *)
Lemma drop_prefix LS LK i (R : N -> bool) :
  (forall k, iget i k = lastloc (LS ++ LK) k None) ->
  (forall k l, iget i k = Some l -> R (l_fid l) = false) ->
  Forall (fun en => R (fid_of en) = true) LS ->
  forall k, lastloc (LS ++ LK) k None = lastloc LK k None /\ lastval (LS ++ LK) k None = lastval LK k None.
Proof.
  intros D1 E1 HLS k. rewrite lastloc_app, lastval_app. destruct (has_key k LK) eqn:Hk.
  - split; [apply lastloc_has_key|apply lastval_has_key]; exact Hk.
  - rewrite (lastloc_no_key LK k (lastloc LS k None) Hk), (lastval_no_key LK k (lastval LS k None) Hk),
      (lastloc_no_key LK k None Hk), (lastval_no_key LK k None Hk).
    assert (Hn : lastloc LS k None = None).
    { destruct (lastloc LS k None) as [l|] eqn:El; [|reflexivity]. exfalso.
      assert (Hik : iget i k = Some l) by (rewrite D1, lastloc_app, El; apply lastloc_no_key; exact Hk).
      destruct (lastloc_In _ _ _ El) as (f & p & e & Hin & -> & _). rewrite Forall_forall in HLS.
      specialize (HLS _ Hin). specialize (E1 k _ Hik). cbn in *. congruence. }
    split; [exact Hn|]. apply lastloc_none_iff. exact Hn.
Qed.

Lemma has_file_filter S L g : has_file (filter (keep S) L) g = negb (S g) && has_file L g.
Proof.
  unfold has_file. induction L as [|[[f p] e] L IH]; [rewrite andb_false_r; reflexivity|].
  cbn [filter keep existsb in_file]. destruct (N.eqb_spec f g) as [->|Hfg].
  - destruct (S g); cbn [negb existsb in_file andb orb]; [exact IH|rewrite N.eqb_refl; reflexivity].
  - destruct (S f); cbn [negb existsb in_file]; rewrite ?(proj2 (N.eqb_neq f g) Hfg); exact IH.
Qed.

Lemma counts_keep S L i g :
  nlive (filter (keep S) L) i g = (if S g then 0 else nlive L i g) /\
  ndead (filter (keep S) L) i g = (if S g then 0 else ndead L i g) /\
  bdead (filter (keep S) L) i g = (if S g then 0 else bdead L i g).
Proof.
  induction L as [|[[f p] e] L (I1 & I2 & I3)]; [destruct (S g); repeat split|].
  cbn [filter keep]. destruct (S f) eqn:Ef; cbn [negb nlive ndead bdead in_file]; rewrite I1, I2, I3.
  - destruct (N.eqb_spec f g) as [->|]; [rewrite Ef; repeat split|cbn [andb]; destruct (S g); repeat split].
  - destruct (N.eqb_spec f g) as [->|]; [rewrite Ef; repeat split|cbn [andb]; destruct (S g); repeat split].
Qed.

Lemma cons_ex_filter S L i x x' :
  cons_ex S L i x -> (forall k, lastloc (filter (keep S) L) k None = lastloc L k None) ->
  (forall g, sget x' g = if S g then None else sget x g) ->
  cons (filter (keep S) L) i x'.
Proof.
  intros (C1 & C2 & C3) Hloc Hx. split; [intros k; rewrite Hloc; apply C1|]. split; intros g _.
  - unfold sget0. rewrite Hx. destruct (counts_keep S L i g) as (-> & -> & ->).
    destruct (S g) eqn:ES; [repeat split|]. apply C2. exact ES.
  - rewrite Hx, has_file_filter. destruct (S g) eqn:ES; [split; reflexivity|]. apply C3. exact ES.
Qed.

Lemma cons_weaken S L i x : cons L i x -> cons_ex S L i x.
Proof. intros (C1 & C2 & C3). repeat split; try apply C1; try (apply C2; reflexivity); try (apply C3; reflexivity). Qed.

Definition merge_ready (c : cfg) (s : st) (ord : list bytes) : Prop :=
  forall sel0, select c s = ROk sel0 -> ord_ok s (sort_ids sel0) ord = true.

