(* Store/SizeThms.v — what a merge does to the size of the store (C13). *)
From BC Require Import Store.Engine Store.Log Store.Step Store.Cons Store.Inv Store.Refine Store.MergeLemmas Store.Merge Store.Sizes Store.Theorems.
Open Scope N_scope.

Lemma filter_blive_le S L i : lsize (filter (keep S) L) + bliveS S L i <= lsize L.
Proof.
  induction L as [|[[f p] e] L IH]; cbn [filter keep bliveS lsize fid_of esize]; [lia|].
  destruct (S f); cbn [negb andb lsize esize]; [destruct (is_live i (f, p, e)); lia|lia].
Qed.

Definition all_selected (sel0 : list N) (L : list lentry) : Prop := Forall (fun en => mem (fid_of en) sel0 = true) L.
Definition live_bytes (L : list lentry) (i : index) : N := bliveS (fun _ => true) L i.

Lemma all_live_bytes L i : (forall g, ndead L i g = 0) -> live_bytes L i = lsize L.
Proof.
  unfold live_bytes. induction L as [|[[f p] e] L IH]; intros H; cbn [bliveS lsize fid_of esize]; [reflexivity|].
  assert (Hl : is_live i (f, p, e) = true).
  { specialize (H f). cbn [ndead in_file] in H. rewrite N.eqb_refl in H. cbn [andb] in H. destruct (is_live i (f, p, e)); [reflexivity|cbn [negb] in H; lia]. }
  rewrite Hl. cbn [andb]. rewrite IH; [reflexivity|]. intros g. specialize (H g). cbn [ndead] in H. lia.
Qed.

Lemma ndead_bdead L i g : ndead L i g = 0 -> bdead L i g = 0.
Proof.
  induction L as [|en L IH]; cbn [ndead bdead]; [reflexivity|].
  destruct (in_file g en && negb (is_live i en)); [lia|]. exact IH.
Qed.

Theorem merge_no_growth c s ord : Inv s -> merge_ready c s ord ->
  exists s' t, merge c s ord = ROk (s', tt, t) /\ dir_size (s_dir s') <= dir_size (s_dir s).
Proof.
  intros HI Hr. destruct (merge_full c s ord HI Hr) as (s' & t & sel0 & Hm & _ & _ & _ & _ & Hsz & _).
  exists s', t. split; [exact Hm|]. rewrite Hsz. apply filter_blive_le.
Qed.

Theorem merge_all_exact c s ord : Inv s -> merge_ready c s ord ->
  (forall sel0, select c s = ROk sel0 -> all_selected sel0 (slog s)) ->
  exists s' t, merge c s ord = ROk (s', tt, t) /\ Inv s' /\
    dir_size (s_dir s') = live_bytes (slog s) (s_idx s) /\
    (forall g, ndead (slog s') (s_idx s') g = 0 /\ bdead (slog s') (s_idx s') g = 0) /\
    live_bytes (slog s') (s_idx s') = dir_size (s_dir s').
Proof.
  intros HI Hr Hall. destruct (merge_full c s ord HI Hr) as (s' & t & sel0 & Hm & Hsel & HI' & _ & _ & Hsz & Hgone & Hfresh).
  specialize (Hall sel0 Hsel). exists s', t. split; [exact Hm|]. split; [exact HI'|].
  assert (Hsz' : dir_size (s_dir s') = live_bytes (slog s) (s_idx s)).
  { rewrite Hsz. rewrite (filter_keep_none (fun g => mem g sel0) (slog s) Hall). cbn [lsize].
    unfold live_bytes. rewrite (bliveS_all _ _ _ Hall). lia. }
  assert (Hdead : forall g, ndead (slog s') (s_idx s') g = 0).
  { intros g. destruct (counters_exact s' HI' g) as (_ & Dg & _). rewrite <- Dg.
    destruct (mem g sel0) eqn:Em; [unfold sget0; rewrite (Hgone g Em); reflexivity|].
    apply Hfresh; [exact Em|].
    (* before the merge every file with a row was selected *)
    pose proof (cons_hasrow _ _ _ _ g (Inv_cons s HI) eq_refl) as Hrow. unfold hasrow in Hrow.
    destruct (sget (s_stats s) g); [|reflexivity]. symmetry in Hrow. apply has_file_In in Hrow as (p & e & Hin).
    unfold all_selected in Hall. rewrite Forall_forall in Hall. specialize (Hall _ Hin). cbn [fid_of] in Hall. congruence. }
  split; [exact Hsz'|]. split.
  - intros g. split; [apply Hdead|apply ndead_bdead, Hdead].
  - rewrite (all_live_bytes _ _ Hdead). reflexivity.
Qed.
