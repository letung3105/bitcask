(* Store/Power.v — power loss under sync=always (C09).  Failure model of the property: per file
   independently, any suffix written after that file's last completed fsync may be missing; file
   creations and removals already issued are persistent; the failure may strike at every boundary
   between file-system calls.  [pstep] tracks, besides the contents, the durable length of every
   file; a power image of a state keeps of each file a prefix at least that long.
   Operations other than merges write and then fsync, so their power images are crash images
   ([shaped_power]) and Store/Crash*.v applies, as it does to the unlinks of a merge.  While a merge
   copies, only its current output pair is not durable; both files of the pair cut anywhere read as
   the output truncated to some number of records ([merge_file_images]). *)
From BC Require Import Base.Bytes Base.Run Store.Codec Store.CodecProofs Store.Engine Store.Log Store.Step Store.Cons Store.Inv Store.Refine
  Store.MergeLemmas Store.Merge Store.Sizes Store.Theorems Store.Trace Store.Crash Store.CrashScript Store.CrashMerge Store.Discipline.
From Coq Require Import Lia List NArith ZArith Bool.
Import ListNotations.
Open Scope N_scope.

Definition pst := (fs * (fname -> nat))%type.
Definition nupd (g : fname -> nat) (f : fname) (n : nat) : fname -> nat := fun x => if fn_eqb x f then n else g x.
Lemma nupd_same g f n : nupd g f n f = n.
Proof. unfold nupd. rewrite fn_eqb_refl. reflexivity. Qed.
Lemma nupd_other g f n x : x <> f -> nupd g f n x = g x.
Proof. intros H. unfold nupd. destruct (fn_eqb_spec x f); [contradiction|reflexivity]. Qed.

Definition pstep (st : pst) (c : syscall) : option pst :=
  let '(s, syn) := st in
  match c with
  | SCreate f => match s f with None => Some (fupd s f (Some []), nupd syn f 0%nat) | Some _ => None end
  | SWrite f b => match s f with Some x => Some (fupd s f (Some (x ++ b)), syn) | None => None end
  | SFsync f => match s f with Some x => Some (s, nupd syn f (length x)) | None => None end
  | SUnlink f => match s f with Some _ => Some (fupd s f None, syn) | None => None end
  end.
Fixpoint prun (st : pst) (t : list syscall) : option pst :=
  match t with [] => Some st | c :: t' => match pstep st c with Some st' => prun st' t' | None => None end end.

Lemma prun_app t1 : forall st t2, prun st (t1 ++ t2) = match prun st t1 with Some st' => prun st' t2 | None => None end.
Proof. intros st t2. exact (orun_app pstep t1 t2 st). Qed.

Lemma pstep_create (s : fs) syn f : s f = None -> pstep (s, syn) (SCreate f) = Some (fupd s f (Some []), nupd syn f 0%nat).
Proof. intros H. cbn [pstep]. rewrite H. reflexivity. Qed.
Lemma pstep_write (s : fs) syn f b x : s f = Some x -> pstep (s, syn) (SWrite f b) = Some (fupd s f (Some (x ++ b)), syn).
Proof. intros H. cbn [pstep]. rewrite H. reflexivity. Qed.
Lemma pstep_fsync (s : fs) syn f x : s f = Some x -> pstep (s, syn) (SFsync f) = Some (s, nupd syn f (length x)).
Proof. intros H. cbn [pstep]. rewrite H. reflexivity. Qed.

Lemma pstep_fst s syn c : option_map fst (pstep (s, syn) c) = fs_step s c.
Proof. destruct c as [f|f b|f|f]; cbn [pstep fs_step]; destruct (s f); reflexivity. Qed.

Lemma prun_fst : forall t s syn, option_map fst (prun (s, syn) t) = fs_run s t.
Proof.
  induction t as [|c t IH]; intros s syn; cbn [prun fs_run]; [reflexivity|]. rewrite <- (pstep_fst s syn c).
  destruct (pstep (s, syn) c) as [[s1 syn1]|]; [apply IH|reflexivity].
Qed.

Lemma pstep_fs s syn c s' syn' : pstep (s, syn) c = Some (s', syn') -> fs_step s c = Some s'.
Proof. intros H. rewrite <- (pstep_fst s syn c), H. reflexivity. Qed.

Lemma prun_fs t s syn s' syn' : prun (s, syn) t = Some (s', syn') -> fs_run s t = Some s'.
Proof. intros H. rewrite <- (prun_fst t s syn), H. reflexivity. Qed.

Lemma prun_of_fs t s syn s' : fs_run s t = Some s' -> exists syn', prun (s, syn) t = Some (s', syn').
Proof. intros H. rewrite <- (prun_fst t s syn) in H. destruct (prun (s, syn) t) as [[s1 syn1]|]; inversion H. eauto. Qed.

Lemma pstep_pointwise (P : option bytes -> nat -> Prop) st c st' :
  pstep st c = Some st' -> (forall f, P (fst st f) (snd st f)) ->
  (forall x, P (Some x) (length x)) -> (forall n, P None n) ->
  (forall f b x n, c = SWrite f b -> P (Some x) n -> P (Some (x ++ b)) n) ->
  forall f, P (fst st' f) (snd st' f).
Proof.
  destruct st as [s syn]. intros H HP Hall Hnone Hw g. specialize (HP g). cbn [fst snd] in HP.
  destruct c as [f|f b|f|f]; cbn [pstep] in H; destruct (s f) as [x|] eqn:Ef; try discriminate; inversion H; subst st'; clear H;
    cbn [fst snd]; destruct (fn_eqb_spec g f) as [->|Hne].
  - rewrite fupd_same, nupd_same. exact (Hall []).
  - rewrite fupd_other, nupd_other by exact Hne. exact HP.
  - rewrite fupd_same. rewrite Ef in HP. exact (Hw f b x _ eq_refl HP).
  - rewrite fupd_other by exact Hne. exact HP.
  - rewrite nupd_same, Ef. exact (Hall x).
  - rewrite nupd_other by exact Hne. exact HP.
  - rewrite fupd_same. apply Hnone.
  - rewrite fupd_other by exact Hne. exact HP.
Qed.

Definition pimage (st : pst) (img : fs) : Prop :=
  forall f, match fst st f with
            | Some b => exists j, (snd st f <= j <= length b)%nat /\ img f = Some (firstn j b)
            | None => img f = None
            end.

Inductive power_image_of (st0 : pst) (t : list syscall) (img : fs) : Prop :=
| pimg t1 t2 st : t = t1 ++ t2 -> prun st0 t1 = Some st -> pimage st img -> power_image_of st0 t img.

Definition synced (st : pst) : Prop := forall f b, fst st f = Some b -> snd st f = length b.

(* a file that is durable, or not there, is in every image as it is in the state *)
Lemma pimage_whole st img g : pimage st img -> (forall b, fst st g = Some b -> snd st g = length b) -> img g = fst st g.
Proof.
  intros Hp Hd. specialize (Hp g). destruct (fst st g) as [b|]; [|exact Hp]. destruct Hp as (j & Hj & ->).
  rewrite (Hd b eq_refl) in Hj. replace j with (length b) by lia. rewrite firstn_all. reflexivity.
Qed.

Lemma synced_image st img : synced st -> pimage st img -> forall f, img f = fst st f.
Proof. intros Hs Hp f. apply (pimage_whole st img f Hp). intros b. apply Hs. Qed.

Lemma pimage_grow (s : fs) syn f x b img : s f = Some x -> pimage (s, syn) img -> pimage (fupd s f (Some (x ++ b)), syn) img.
Proof.
  intros Hf Hp g. cbn [fst snd]. destruct (fn_eqb_spec g f) as [->|Hne]; [|rewrite fupd_other by exact Hne; exact (Hp g)].
  specialize (Hp f). cbn [fst snd] in Hp. rewrite Hf in Hp. destruct Hp as (j & Hj & Hi).
  rewrite fupd_same. exists j. rewrite app_length, firstn_app. replace (j - length x)%nat with 0%nat by lia.
  rewrite app_nil_r. split; [lia|exact Hi].
Qed.

Lemma pimages_nil st (P : fs -> Prop) : (forall i, pimage st i -> P i) -> forall i, power_image_of st [] i -> P i.
Proof. intros H i [t1 t2 st' E R Hp]. symmetry in E. apply app_eq_nil in E as [-> ->]. cbn in R. inversion R; subst. exact (H i Hp). Qed.

Lemma pimages_cons st c st1 t (P : fs -> Prop) : pstep st c = Some st1 -> (forall i, pimage st i -> P i) ->
  (forall i, power_image_of st1 t i -> P i) -> forall i, power_image_of st (c :: t) i -> P i.
Proof.
  intros Hs H0 H1 i [t1 t2 st' E R Hp]. destruct t1 as [|c' t1]; cbn [app] in E.
  - cbn in R. inversion R; subst. exact (H0 i Hp).
  - injection E as <- E. cbn [prun] in R. rewrite Hs in R. exact (H1 i (pimg _ _ _ t1 t2 st' E R Hp)).
Qed.

(* before a write nothing needs to be shown: what a failure can leave then, it can leave afterwards *)
Lemma pimages_write (s : fs) syn f x b t (P : fs -> Prop) : s f = Some x ->
  (forall i, power_image_of (fupd s f (Some (x ++ b)), syn) t i -> P i) ->
  forall i, power_image_of (s, syn) (SWrite f b :: t) i -> P i.
Proof.
  intros Hf H1. apply (pimages_cons _ _ _ _ _ (pstep_write s syn f b x Hf)); [|exact H1].
  intros i Hp. apply H1. exact (pimg _ _ _ [] _ _ eq_refl eq_refl (pimage_grow s syn f x b i Hf Hp)).
Qed.

Lemma pimages_app st t st1 ext (P : fs -> Prop) : prun st t = Some st1 -> (forall i, power_image_of st t i -> P i) ->
  (forall i, power_image_of st1 ext i -> P i) -> forall i, power_image_of st (t ++ ext) i -> P i.
Proof.
  intros Hrun H0 H1 i [t1 t2 st' E R Hp]. apply app_eq_app_cases in E as [(q1 & _ & E1 & _)|(p2 & -> & E2)].
  - exact (H0 i (pimg _ _ _ t1 q1 st' E1 R Hp)).
  - rewrite prun_app, Hrun in R. exact (H1 i (pimg _ _ _ p2 t2 st' E2 R Hp)).
Qed.

Definition pwalk (P : fs -> Prop) (st : pst) (t : list syscall) (st' : pst) : Prop :=
  prun st t = Some st' /\ forall i, power_image_of st t i -> P i.

Lemma pwalk_nil (P : fs -> Prop) st : (forall i, pimage st i -> P i) -> pwalk P st [] st.
Proof. intros H. split; [reflexivity|exact (pimages_nil st P H)]. Qed.

Lemma pwalk_cons (P : fs -> Prop) st c st1 t st' : pstep st c = Some st1 -> (forall i, pimage st i -> P i) ->
  pwalk P st1 t st' -> pwalk P st (c :: t) st'.
Proof. intros Hs H0 [Hr Hi]. split; [cbn [prun]; rewrite Hs; exact Hr|exact (pimages_cons st c st1 t P Hs H0 Hi)]. Qed.

Lemma pwalk_write (P : fs -> Prop) (s : fs) syn f x b t st' : s f = Some x ->
  pwalk P (fupd s f (Some (x ++ b)), syn) t st' -> pwalk P (s, syn) (SWrite f b :: t) st'.
Proof.
  intros Hf [Hr Hi]. split; [cbn [prun]; rewrite (pstep_write s syn f b x Hf); exact Hr|exact (pimages_write s syn f x b t P Hf Hi)].
Qed.

Lemma pwalk_app (P : fs -> Prop) st t st1 t' st' : pwalk P st t st1 -> pwalk P st1 t' st' -> pwalk P st (t ++ t') st'.
Proof. intros [Hr Hi] [Hr' Hi']. split; [rewrite prun_app, Hr; exact Hr'|exact (pimages_app st t st1 t' P Hr Hi Hi')]. Qed.

(* as [reads_as], but of a hinted file the hint file may hold further hints after those of [d]: the
   first of them points past the end of the data file, which stops the scan (the D9 repair) *)
Definition reads_as_p (img : fs) (d : dir) : Prop :=
  forall id, match dir_get d id with
             | Some f =>
               match d_hint f with
               | None => (exists tail, img (FData id) = Some (file_bytes (d_data f) ++ tail) /\ torn_entry tail) /\ img (FHint id) = None
               | Some hs => exists b extra tail,
                   img (FData id) = Some b /\ Forall (fun h => h_pos h + h_len h <= blen b) hs /\
                   img (FHint id) = Some (hint_bytes (hs ++ extra) ++ tail) /\ torn_hint tail /\
                   match extra with [] => True | h :: _ => blen b < h_pos h + h_len h end
               end
             | None => img (FData id) = None /\ img (FHint id) = None
             end.

Definition img_ok_p (img : fs) (m : bytes -> option bytes) : Prop := exists d, reads_as_p img d /\ recovers_to d m.

Lemma reads_as_to_p img d : reads_as img d -> dir_hints_ok d -> reads_as_p img d.
Proof.
  intros H Hok id. specialize (H id). destruct (dir_get d id) as [f|] eqn:Eg; [|exact H]. destruct (d_hint f) as [hs|] eqn:Eh; [|exact H].
  destruct H as [(b & Hb) (tail & Ht & Htt)]. exists (file_bytes (d_data f) ++ b), [], tail. rewrite app_nil_r.
  split; [exact Hb|]. split; [exact (hints_ok_fit f hs b (Hok id f (dir_get_In _ _ _ Eg)) Eh)|]. split; [exact Ht|split; [exact Htt|exact I]].
Qed.

Lemma img_ok_to_p img img' m : (forall f, img' f = img f) -> img_ok img m -> img_ok_p img' m.
Proof.
  intros E (d & Hr & Hrec). exists d. split; [|exact Hrec]. intros id. rewrite !E. exact (reads_as_to_p img d Hr (proj1 Hrec) id).
Qed.

(* the model's hint loader agrees: extra hints after the first one that overshoots are not loaded *)
Lemma load_hints_extra fid L L' : forall hs extra ix,
  Forall (fun h => h_pos h + h_len h <= L) hs -> Forall (fun h => h_pos h + h_len h <= L') hs ->
  match extra with [] => True | h :: _ => L < h_pos h + h_len h end ->
  load_hints fid L (hs ++ extra) ix = load_hints fid L' hs ix.
Proof.
  induction hs as [|h hs IH]; intros extra ix H1 H2 Hx; cbn [app load_hints].
  - destruct extra as [|x extra]; [reflexivity|]. cbn [load_hints]. replace (L <? h_pos x + h_len x) with true by (symmetry; apply N.ltb_lt; exact Hx). reflexivity.
  - inversion H1; subst. inversion H2; subst.
    replace (L <? h_pos h + h_len h) with false by (symmetry; apply N.ltb_ge; assumption).
    replace (L' <? h_pos h + h_len h) with false by (symmetry; apply N.ltb_ge; assumption).
    destruct (ins_loc ix (h_key h) _); [apply IH; assumption|reflexivity].
Qed.

(* the bytes of [h] are the encoding of a representable hint (which the scanner will read) *)
Definition henc (h : hint) : Prop := exists h', wf_hint h' /\ enc_hint h = enc_hint h'.

Lemma hint_bytes_cut : forall hs j, Forall henc hs ->
  exists k tail, firstn j (hint_bytes hs) = hint_bytes (firstn k hs) ++ tail /\ torn_hint tail.
Proof.
  induction hs as [|h hs IH]; intros j Hwf.
  - exists 0%nat, []. cbn. rewrite firstn_nil. split; [reflexivity|left; reflexivity].
  - inversion Hwf as [|? ? Hh Hhs]; subst. cbn [hint_bytes]. rewrite firstn_app.
    destruct (Nat.lt_ge_cases j (length (enc_hint h))) as [Hlt|Hge].
    + exists 0%nat, (firstn j (enc_hint h)). replace (j - length (enc_hint h))%nat with 0%nat by lia. cbn [firstn hint_bytes app]. rewrite app_nil_r.
      split; [reflexivity|]. destruct Hh as (h' & Hh' & Eh'). right. exists h', (skipn j (enc_hint h)). split; [exact Hh'|]. split; [|rewrite <- Eh'; symmetry; apply firstn_skipn].
      intros E. apply (f_equal (@length _)) in E. rewrite skipn_length in E. cbn [length] in E. lia.
    + rewrite firstn_all2 by exact Hge. destruct (IH (j - length (enc_hint h))%nat Hhs) as (k & tail & E & Ht).
      exists (S k), tail. cbn [firstn hint_bytes]. rewrite E, app_assoc. split; [reflexivity|exact Ht].
Qed.

(* the loader takes hints up to the first that points past the end [L] of the data file *)
Lemma fit_split L : forall hs : list hint, exists n,
  Forall (fun h => h_pos h + h_len h <= L) (firstn n hs) /\
  match skipn n hs with [] => True | h :: _ => L < h_pos h + h_len h end.
Proof.
  induction hs as [|h hs (n & Hfit & Hnext)]; [exists 0%nat; split; [constructor|exact I]|].
  destruct (N.le_gt_cases (h_pos h + h_len h) L) as [Hle|Hgt].
  - exists (S n). split; [constructor; assumption|exact Hnext].
  - exists 0%nat. split; [constructor|exact Hgt].
Qed.

Definition trunc (d : dir) (a : N) (n : nat) : dir :=
  match dir_get d a with
  | Some fm => dir_set d a (mkFile (firstn n (d_data fm)) (Some (hints_of (firstn n (d_data fm)) 0)))
  | None => d
  end.

Lemma trunc_all d a fm n : dir_get d a = Some fm -> d_hint fm = Some (hints_of (d_data fm) 0) -> (length (d_data fm) <= n)%nat ->
  trunc d a n = d.
Proof.
  intros Hg Hh Hn. unfold trunc. rewrite Hg, firstn_all2 by exact Hn. rewrite <- Hh. destruct fm. apply dir_set_same. exact Hg.
Qed.

Lemma trunc_set_app d a fm e hs n : dir_get d a = Some fm -> (n <= length (d_data fm))%nat ->
  trunc (dir_set d a (mkFile (d_data fm ++ [e]) hs)) a n = trunc d a n.
Proof.
  intros Hg Hn. unfold trunc. rewrite dir_get_set, N.eqb_refl, Hg, dir_set_twice. cbn [d_data].
  rewrite firstn_app. replace (n - length (d_data fm))%nat with 0%nat by lia. cbn [firstn]. rewrite app_nil_r. reflexivity.
Qed.

(* the output [a] of a merge under way: with [a] cut down to any number of records, [d] opens to [m0] *)
Definition out_ok (m0 : bytes -> option bytes) (d : dir) (a : N) : Prop :=
  exists fm, dir_get d a = Some fm /\ d_hint fm = Some (hints_of (d_data fm) 0) /\
             Forall henc (hints_of (d_data fm) 0) /\ forall n, good m0 (trunc d a n).

Lemma out_ok_fresh m0 d a : dir_get d a = Some (mkFile [] (Some [])) -> good m0 d -> out_ok m0 d a.
Proof.
  intros Hg Hgood. exists (mkFile [] (Some [])). split; [exact Hg|]. split; [reflexivity|]. split; [constructor|].
  intros n. rewrite (trunc_all _ _ _ n Hg eq_refl (Nat.le_0_l n)). exact Hgood.
Qed.

Lemma out_ok_snoc m0 d a fm e h :
  let fm2 := mkFile (d_data fm ++ [e]) (Some (hints_of (d_data fm) 0 ++ [h])) in
  out_ok m0 d a -> dir_get d a = Some fm -> henc h -> hints_of (d_data fm) 0 ++ [h] = hints_of (d_data fm ++ [e]) 0 ->
  good m0 (dir_set d a fm2) -> out_ok m0 (dir_set d a fm2) a.
Proof.
  intros fm2 (fm' & Hfm' & _ & Hhs & HG) Hfm Hh Ehs Hgood. rewrite Hfm in Hfm'. injection Hfm' as <-.
  assert (Hg2 : dir_get (dir_set d a fm2) a = Some fm2) by (rewrite dir_get_set, N.eqb_refl; reflexivity).
  assert (Hh2 : d_hint fm2 = Some (hints_of (d_data fm2) 0)) by (cbn [fm2 d_hint d_data]; rewrite Ehs; reflexivity).
  exists fm2. split; [exact Hg2|]. split; [exact Hh2|]. split.
  - cbn [fm2 d_data]. rewrite <- Ehs. apply Forall_app. split; [exact Hhs|]. constructor; [exact Hh|constructor].
  - intros n. destruct (Nat.le_gt_cases n (length (d_data fm))) as [Hle|Hgt].
    + unfold fm2. rewrite (trunc_set_app _ _ fm) by assumption. apply HG.
    + rewrite (trunc_all _ a fm2 n Hg2 Hh2) by (cbn [fm2 d_data]; rewrite app_length; cbn [length]; lia). exact Hgood.
Qed.

Definition durable_but (a : N) (st : pst) : Prop :=
  forall g b, g <> FData a -> g <> FHint a -> fst st g = Some b -> snd st g = length b.

Lemma synced_durable_but a st : synced st -> durable_but a st.
Proof. intros H g b _ _. apply H. Qed.

Lemma durable_but_ext a f syn f' syn' : durable_but a (f, syn) ->
  (forall g, g <> FData a -> g <> FHint a -> f' g = f g /\ syn' g = syn g) -> durable_but a (f', syn').
Proof.
  intros H E g b H1 H2 Hg. cbn [fst snd] in *. destruct (E g H1 H2) as [Ef Es]. rewrite Es. rewrite Ef in Hg. exact (H g b H1 H2 Hg).
Qed.

Lemma synced_after_two_fsyncs a (f : fs) syn x y : durable_but a (f, syn) -> f (FData a) = Some x -> f (FHint a) = Some y ->
  synced (f, nupd (nupd syn (FData a) (length x)) (FHint a) (length y)).
Proof.
  intros H Hx Hy g b Hg. cbn [fst snd] in *. destruct (fn_eqb_spec g (FHint a)) as [->|H2]; [rewrite nupd_same; congruence|].
  rewrite nupd_other by exact H2. destruct (fn_eqb_spec g (FData a)) as [->|H1]; [rewrite nupd_same; congruence|].
  rewrite nupd_other by exact H1. exact (H g b H1 H2 Hg).
Qed.

(* Both files of the output cut anywhere: the scanner reads the hints that survive, up to the first
   that points past what survives of the data file; that is the output truncated to some number of
   records. *)
Lemma merge_file_images m0 d a f syn : out_ok m0 d a -> rep f d -> durable_but a (f, syn) ->
  forall img, pimage (f, syn) img -> img_ok_p img m0.
Proof.
  intros (fm & Hfm & Hh & Hwfh & HG) Hrep Hsyn img Hp.
  pose proof (HG (length (d_data fm))) as (_ & Hok & _). rewrite (trunc_all d a fm _ Hfm Hh (le_n _)) in Hok.
  set (es := d_data fm) in *.
  destruct (rep_get f d a fm Hrep Hfm) as [Hfd Hfh]. rewrite Hh in Hfh. cbn [option_map] in Hfh.
  pose proof (Hp (FData a)) as Hpd. cbn [fst snd] in Hpd. rewrite Hfd in Hpd. destruct Hpd as (jd & _ & Hid).
  pose proof (Hp (FHint a)) as Hph. cbn [fst snd] in Hph. rewrite Hfh in Hph. destruct Hph as (jh & _ & Hih).
  set (bd := firstn jd (file_bytes es)) in *.
  destruct (hint_bytes_cut _ jh Hwfh) as (k & tail & Ecut & Htorn). rewrite hints_of_firstn in Ecut.
  destruct (fit_split (blen bd) (hints_of (firstn k es) 0)) as (n & Hfit & Hnext).
  rewrite hints_of_firstn, firstn_firstn in Hfit.
  exists (trunc d a (Nat.min n k)). split; [|apply good_recovers; apply HG].
  intros id. unfold trunc. rewrite Hfm, dir_get_set. destruct (N.eqb_spec a id) as [<-|Hne].
  - cbn [d_hint d_data]. fold es. exists bd, (skipn n (hints_of (firstn k es) 0)), tail.
    split; [exact Hid|]. split; [exact Hfit|]. split; [|split; [exact Htorn|exact Hnext]].
    rewrite Hih, Ecut, <- firstn_firstn, <- (hints_of_firstn (firstn k es) n), firstn_skipn. reflexivity.
  - pose proof (reads_as_to_p f d (rep_reads f d Hrep) Hok id) as Hr.
    assert (Hother : forall g, g <> FData a -> g <> FHint a -> img g = f g).
    { intros g H1 H2. apply (pimage_whole _ img g Hp). intros b. exact (Hsyn g b H1 H2). }
    rewrite !Hother by congruence. exact Hr.
Qed.

Lemma synced_boundary_crash s0 t1 t2 st img : fs_run s0 t1 = Some (fst st) -> synced st -> pimage st img ->
  exists img', image_of s0 (t1 ++ t2) img' /\ forall f, img f = img' f.
Proof.
  intros Hrun Hs Hp. exists (fst st). split; [exact (img_boundary _ _ _ t1 t2 eq_refl Hrun)|exact (synced_image _ _ Hs Hp)].
Qed.

Lemma synced_step st c st' : pstep st c = Some st' -> synced st -> match c with SWrite _ _ => False | _ => True end -> synced st'.
Proof.
  intros H Hs Hc. refine (pstep_pointwise (fun ob n => forall b, ob = Some b -> n = length b) st c st' H Hs _ _ _); [|discriminate|].
  - intros x b E. inversion E. reflexivity.
  - intros f b x n E. rewrite E in Hc. contradiction.
Qed.

Lemma synced_write_fsync s syn f x b : synced (s, syn) -> synced (fupd s f (Some (x ++ b)), nupd syn f (length (x ++ b))).
Proof.
  intros H g y Hg. cbn [fst snd] in *. destruct (fn_eqb_spec g f) as [->|Hne].
  - rewrite fupd_same in Hg. rewrite nupd_same. inversion Hg. reflexivity.
  - rewrite fupd_other in Hg by exact Hne. rewrite nupd_other by exact Hne. exact (H g y Hg).
Qed.

Lemma write_boundary s syn f x b img : synced (s, syn) -> s f = Some x -> pimage (fupd s f (Some (x ++ b)), syn) img ->
  exists b1 b2, b = b1 ++ b2 /\ forall g, img g = fupd s f (Some (x ++ b1)) g.
Proof.
  intros Hs Hf Hp. pose proof (Hp f) as Hpf. cbn [fst snd] in Hpf. rewrite fupd_same in Hpf. destruct Hpf as (j & Hj & Hi).
  pose proof (Hs f x Hf) as Hsf. cbn [fst snd] in Hsf. rewrite Hsf in Hj. rewrite app_length in Hj.
  exists (firstn (j - length x) b), (skipn (j - length x) b). split; [symmetry; apply firstn_skipn|].
  intros g. destruct (fn_eqb_spec g f) as [->|Hne].
  - rewrite fupd_same, Hi, firstn_app. rewrite firstn_all2 by lia. reflexivity.
  - rewrite (pimage_whole _ img g Hp).
    + cbn [fst]. rewrite !fupd_other by exact Hne. reflexivity.
    + cbn [fst snd]. rewrite fupd_other by exact Hne. intros y. apply Hs.
Qed.

Fixpoint sync_shaped (t : list syscall) : bool :=
  match t with
  | [] => true
  | SWrite f b :: t' => match t' with SFsync g :: t'' => fn_eqb f g && sync_shaped t'' | _ => false end
  | _ :: t' => sync_shaped t'
  end.

Lemma sync_shaped_ind (P : list syscall -> Prop) :
  P [] -> (forall f b t, sync_shaped t = true -> P t -> P (SWrite f b :: SFsync f :: t)) ->
  (forall c t, match c with SWrite _ _ => False | _ => True end -> sync_shaped t = true -> P t -> P (c :: t)) ->
  forall t, sync_shaped t = true -> P t.
Proof.
  intros Hnil Hpair Hplain. fix IH 1. intros [|c t] Hsh; [exact Hnil|].
  destruct c as [f|f b|f|f]; try (apply Hplain; [exact I|exact Hsh|exact (IH t Hsh)]).
  destruct t as [|[g|g b'|g|g] t]; try discriminate. cbn [sync_shaped] in Hsh. apply andb_true_iff in Hsh as [Hg Hsh].
  apply fn_eqb_eq in Hg. subst g. exact (Hpair f b t Hsh (IH t Hsh)).
Qed.

Lemma shaped_power : forall t, sync_shaped t = true -> forall s0 pre st st1, fs_run s0 pre = Some (fst st) -> synced st -> prun st t = Some st1 ->
  synced st1 /\ forall img, power_image_of st t img -> exists img', image_of s0 (pre ++ t) img' /\ forall f, img f = img' f.
Proof.
  intros t Hsh. pattern t. revert t Hsh. apply sync_shaped_ind.
  - intros s0 pre st st1 Hpre Hs Hrun. injection Hrun as <-. split; [exact Hs|]. apply pimages_nil.
    intros i Hp. exact (synced_boundary_crash s0 pre [] st i Hpre Hs Hp).
  - (* a write and its fsync: in between, the written bytes may be cut anywhere *)
    intros g b t _ IH s0 pre [s syn] st1 Hpre Hs Hrun. cbn [fst] in Hpre. cbn [prun pstep] in Hrun. destruct (s g) as [x|] eqn:Eg; [|discriminate].
    cbn [prun pstep] in Hrun. rewrite fupd_same in Hrun. set (s2 := fupd s g (Some (x ++ b))) in *.
    assert (Hw1 : forall y, fs_run s0 (pre ++ [SWrite g y]) = Some (fupd s g (Some (x ++ y)))).
    { intros y. rewrite fs_run_app, Hpre. cbn [fs_run fs_step]. rewrite Eg. reflexivity. }
    assert (Hpre2 : fs_run s0 ((pre ++ [SWrite g b]) ++ [SFsync g]) = Some s2).
    { rewrite fs_run_app, Hw1. fold s2. cbn [fs_run fs_step]. unfold s2 at 1. rewrite fupd_same. reflexivity. }
    destruct (IH s0 _ (s2, _) st1 Hpre2 (synced_write_fsync s syn g x b Hs) Hrun) as [Hs1 Himgs]. split; [exact Hs1|].
    rewrite <- !app_assoc in Himgs. apply (pimages_write s syn g x b _ _ Eg). fold s2.
    apply (pimages_cons _ _ _ _ _ (pstep_fsync s2 syn g _ (fupd_same _ _ _))); [|exact Himgs].
    intros i Hp. destruct (write_boundary s syn g x b i Hs Eg Hp) as (b1 & b2 & Eb & He).
    exists (fupd s g (Some (x ++ b1))). split; [|exact He]. destruct b2 as [|y b2].
    + rewrite app_nil_r in Eb. rewrite <- Eb. apply (img_boundary _ _ _ (pre ++ [SWrite g b]) (SFsync g :: t)); [rewrite <- app_assoc; reflexivity|apply Hw1].
    + apply (img_torn _ _ _ pre g b1 (y :: b2) (SFsync g :: t)); [rewrite Eb; reflexivity|discriminate|apply Hw1].
  - intros c t Hc _ IH s0 pre [s syn] st1 Hpre Hs Hrun. cbn [prun] in Hrun. destruct (pstep (s, syn) c) as [[sA synA]|] eqn:Est; [|discriminate].
    assert (Hpre2 : fs_run s0 (pre ++ [c]) = Some sA).
    { rewrite fs_run_app, Hpre. cbn [fst fs_run]. rewrite (pstep_fs _ _ _ _ _ Est). reflexivity. }
    destruct (IH s0 _ (sA, synA) st1 Hpre2 (synced_step _ _ _ Est Hs Hc) Hrun) as [Hs1 Himgs]. split; [exact Hs1|].
    rewrite <- app_assoc in Himgs. apply (pimages_cons _ _ _ _ _ Est); [|exact Himgs].
    intros i Hp. exact (synced_boundary_crash s0 pre (c :: t) (s, syn) i Hpre Hs Hp).
Qed.

Definition step_power_safe (c : cfg) (s : st) (o : op) : Prop :=
  forall st0, synced st0 -> rep (fst st0) (s_dir s) ->
    let '(s', _, t) := step c s o in
    trace_wf t ->
    (exists st1, prun st0 t = Some st1 /\ synced st1 /\ rep (fst st1) (s_dir s')) /\
    forall img, power_image_of st0 t img -> img_ok_p img (abs s) \/ img_ok_p img (abs s').

Lemma shaped_step_power c s o : step_safe_at c s o -> sync_shaped (snd (step c s o)) = true -> step_power_safe c s o.
Proof.
  intros Hsafe Hsh [s0 syn0] Hs Hrep. specialize (Hsafe s0 Hrep). destruct (step c s o) as [[s' r] t]. cbn [snd fst] in *.
  intros Hwf. destruct (Hsafe Hwf) as [(s1 & Hrun & Hrep1) Himgs].
  destruct (prun_of_fs t s0 syn0 s1 Hrun) as (syn1 & Hprun).
  destruct (shaped_power t Hsh s0 [] (s0, syn0) (s1, syn1) eq_refl Hs Hprun) as [Hs1 Hpi].
  split; [exists (s1, syn1); auto|].
  intros img Hp. destruct (Hpi img Hp) as (img' & Hi & He).
  destruct (Himgs img' Hi) as [H|H]; [left|right]; eapply img_ok_to_p; eauto.
Qed.

Lemma write_trace_shaped c s k v s' l t : c_sync c = true -> Inv s -> write c s k v = ROk (s', l, t) -> sync_shaped t = true.
Proof.
  intros Hsync HI Hw. destruct (write_shape c s k v s' l t HI Hw) as (fa & _ & _ & Hshape). cbv zeta in Hshape.
  unfold sync_calls in Hshape. rewrite Hsync in Hshape. destruct Hshape as [(-> & _)|(-> & _)]; cbn [sync_shaped app]; rewrite fn_eqb_refl; reflexivity.
Qed.

Theorem nomerge_power_safe c s o : c_sync c = true -> Inv s -> is_merge o = false -> step_power_safe c s o.
Proof.
  intros Hsync HI Hm. apply shaped_step_power; [apply nomerge_step_safe; assumption|].
  assert (Hw : is_write o -> sync_shaped (snd (step c s o)) = true).
  { intros Ho. pose proof (step_write c s o HI Ho) as Hw. destruct (step c s o) as [[s' r] t].
    destruct Hw as (k & v & s1 & l & Hw & _). exact (write_trace_shaped c s k v s1 l t Hsync HI Hw). }
  destruct o as [k v|k|k|ord| |tm]; try discriminate; [exact (Hw I)| |exact (Hw I)| |reflexivity]; cbn [step].
  - destruct (get s k); reflexivity.
  - unfold reopen, open. destruct (rebuild_files (s_dir s) ([], [])) as [[i x]|]; reflexivity.
Qed.

Lemma synced_crash_ok s syn d m0 : synced (s, syn) -> rep s d -> good m0 d -> forall img, pimage (s, syn) img -> img_ok_p img m0.
Proof.
  intros Hs Hrep Hg img Hp. apply (img_ok_to_p s img m0 (synced_image _ _ Hs Hp)). exact (rep_good_ok m0 s d Hrep Hg).
Qed.

Lemma create_pair_power m0 f syn d n : synced (f, syn) -> rep f d -> dir_get d n = None ->
  good m0 d -> good m0 (d ++ [(n, empty_file)]) -> good m0 (d ++ [(n, mkFile [] (Some []))]) ->
  let d' := d ++ [(n, mkFile [] (Some []))] in
  exists st', pwalk (fun i => img_ok_p i m0) (f, syn) [SCreate (FData n); SCreate (FHint n)] st' /\
    rep (fst st') d' /\ durable_but n st' /\ out_ok m0 d' n.
Proof.
  intros Hsy Hrep Hn Hg Hg1 Hg2 d'. destruct (create_pair_fs f d n Hrep Hn) as (Hnd & Hnh & Hr1 & Hr2). cbv zeta in Hr1, Hr2.
  set (f1 := fupd f (FData n) (Some [])) in *.
  assert (Hf1h : f1 (FHint n) = None) by (unfold f1; rewrite fupd_other by discriminate; exact Hnh).
  pose proof (pstep_create f syn _ Hnd) as Hp1. fold f1 in Hp1. pose proof (pstep_create f1 (nupd syn (FData n) 0%nat) _ Hf1h) as Hp2.
  pose proof (synced_step _ _ _ Hp1 Hsy I) as Hsy1. pose proof (synced_step _ _ _ Hp2 Hsy1 I) as Hsy2.
  eexists. split.
  - apply (pwalk_cons _ _ _ _ _ _ Hp1 (synced_crash_ok _ _ _ m0 Hsy Hrep Hg)).
    apply (pwalk_cons _ _ _ _ _ _ Hp2 (synced_crash_ok _ _ _ m0 Hsy1 Hr1 Hg1)).
    apply pwalk_nil. exact (synced_crash_ok _ _ _ m0 Hsy2 Hr2 Hg2).
  - split; [exact Hr2|]. split; [exact (synced_durable_but n _ Hsy2)|]. apply out_ok_fresh; [|exact Hg2].
    unfold d'. rewrite <- (dir_set_new d n _ Hn), dir_get_set, N.eqb_refl. reflexivity.
Qed.

Lemma fsync_pair_power m0 d a f syn : out_ok m0 d a -> rep f d -> durable_but a (f, syn) ->
  exists syn', pwalk (fun i => img_ok_p i m0) (f, syn) [SFsync (FData a); SFsync (FHint a)] (f, syn') /\ synced (f, syn').
Proof.
  intros Hout Hrep Hsyn. pose proof Hout as (fm & Hfm & Hh & _).
  destruct (rep_get f d a fm Hrep Hfm) as [Hfd Hfh]. rewrite Hh in Hfh. cbn [option_map] in Hfh.
  pose proof (fun syn' => merge_file_images m0 d a f syn' Hout Hrep) as Hcut.
  set (synA := nupd syn (FData a) (length (file_bytes (d_data fm)))).
  assert (HsA : durable_but a (f, synA)).
  { apply (durable_but_ext a f syn _ _ Hsyn). intros g H1 H2. unfold synA. rewrite nupd_other by exact H1. auto. }
  pose proof (synced_after_two_fsyncs a f syn _ _ Hsyn Hfd Hfh) as HsyB. fold synA in HsyB.
  eexists. split; [|exact HsyB].
  apply (pwalk_cons _ _ _ _ _ _ (pstep_fsync f syn _ _ Hfd) (Hcut syn Hsyn)).
  apply (pwalk_cons _ _ _ _ _ _ (pstep_fsync f synA _ _ Hfh) (Hcut synA HsA)).
  apply pwalk_nil. exact (Hcut _ (synced_durable_but a _ HsyB)).
Qed.

(* of the file system under the copy loop, with power failures: from [st0] the calls so far end in a
   state that represents [m_dir m] and in which every file but the current output is durable, every
   power image on the way recovers to the map of [s], and the output cut down to any number of
   records still opens to that map ([out_ok]) *)
Definition PI (s : st) (st0 : pst) (m : mstate) : Prop :=
  exists f syn, pwalk (fun i => img_ok_p i (abs s)) st0 (rev (m_trace m)) (f, syn) /\
    rep f (m_dir m) /\ durable_but (m_id m) (f, syn) /\ out_ok (abs s) (m_dir m) (m_id m).

Lemma merge_one_power c s S m M k l m' M' st0 :
  LI s S m M -> LI s S m' M' -> merge_one c m k l = ROk m' -> trace_wf (rev (m_trace m')) -> PI s st0 m -> PI s st0 m'.
Proof.
  intros HLI HLI' Hone Hwf (f & syn & Hwalk & Hrep & Hsyn & Hout).
  destruct (merge_one_fs c s S m M k l m' M' f HLI HLI' Hone Hrep) as (fm & e & Hfs). cbv zeta in Hfs.
  set (a := m_id m) in *. set (es := d_data fm) in *. set (hs := hints_of es 0) in *.
  set (h := mkHint (l_ts l) (l_len l) (m_pos m) k) in *.
  set (d2 := dir_set (m_dir m) a (mkFile (es ++ [e]) (Some (hs ++ [h])))) in *.
  set (f1 := fupd f (FData a) (Some (file_bytes es ++ enc_entry e))) in *.
  set (f2 := fupd f1 (FHint a) (Some (hint_bytes hs ++ enc_hint h))) in *.
  destruct Hfs as (Hfm & _ & _ & Hfd & Hfh & Hrep2 & Hgood2 & Hhs2 & Hhenc & Hshape).
  assert (Hf1h : f1 (FHint a) = Some (hint_bytes hs)) by (unfold f1; rewrite fupd_other by discriminate; exact Hfh).
  assert (Hsyn2 : durable_but a (f2, syn)).
  { apply (durable_but_ext a f syn _ _ Hsyn). intros g H1 H2. unfold f2, f1. rewrite !fupd_other by assumption. auto. }
  (* [call_wf] of the hint write is [henc h] *)
  pose proof (out_ok_snoc (abs s) (m_dir m) a fm e h Hout Hfm (Hhenc Hwf) Hhs2 Hgood2) as Hout2. cbv zeta in Hout2. fold es hs d2 in Hout2.
  assert (Hw12 : pwalk (fun i => img_ok_p i (abs s)) st0 (rev (m_trace m) ++ [SWrite (FData a) (enc_entry e); SWrite (FHint a) (enc_hint h)]) (f2, syn)).
  { apply (pwalk_app _ _ _ _ _ _ Hwalk). apply (pwalk_write _ f syn _ _ _ _ _ Hfd). apply (pwalk_write _ f1 syn _ _ _ _ _ Hf1h).
    apply pwalk_nil. exact (merge_file_images (abs s) d2 a f2 syn Hout2 Hrep2 Hsyn2). }
  destruct Hshape as [(Hd & Hid' & _ & _ & Ht)|(Hd & Hid' & _ & _ & Ht & Hn & _ & _ & Hgood3 & _)].
  - exists f2, syn. rewrite Hid', Hd, Ht. auto.
  - (* rollover *)
    set (n := m_last m + 1) in *.
    destruct (fsync_pair_power (abs s) d2 a f2 syn Hout2 Hrep2 Hsyn2) as (synB & Hw34 & HsyB).
    pose proof (LI_good s S m' M' HLI') as Hgood'. rewrite Hd in Hgood'.
    destruct (create_pair_power (abs s) f2 synB d2 n HsyB Hrep2 Hn Hgood2 Hgood3 Hgood') as ([f4 synD] & Hw56 & Hrest).
    exists f4, synD. rewrite Hid', Hd, Ht, app_assoc. split; [|exact Hrest].
    exact (pwalk_app _ _ _ _ _ _ Hw12 (pwalk_app _ _ _ _ _ _ Hw34 Hw56)).
Qed.

Lemma sync_shaped_app t1 t2 : sync_shaped t1 = true -> sync_shaped t2 = true -> sync_shaped (t1 ++ t2) = true.
Proof.
  intros H1 H2. pattern t1. revert t1 H1. apply sync_shaped_ind.
  - exact H2.
  - intros f b t _ IH. cbn [app sync_shaped]. rewrite fn_eqb_refl. exact IH.
  - intros c t Hc _ IH. destruct c; [exact IH|contradiction|exact IH|exact IH].
Qed.

Lemma plain_shaped : forall t, forallb plain t = true -> sync_shaped t = true.
Proof.
  induction t as [|c t IH]; cbn [forallb sync_shaped]; [reflexivity|]. intros H. apply andb_true_iff in H as [Hc Ht].
  destruct c; try discriminate; apply IH; exact Ht.
Qed.

Theorem merge_power_safe c s ord : Inv s -> merge_ready c s ord -> step_power_safe c s (OMerge ord).
Proof.
  intros HI Hready [s0 syn0] Hsy0 Hrep0. cbn [fst] in Hrep0.
  pose proof (merge_safe c s ord HI Hready s0 Hrep0) as Hcrash. cbn [step] in *.
  destruct (merge_phases c s ord HI Hready) as (sel & m & M & s' & Hph). cbv zeta in Hph.
  set (S := fun g => mem g sel) in *. set (id0 := s_last s + 1) in *.
  set (m0 := mkM (s_dir s ++ [(id0, mkFile [] (Some []))]) (s_idx s) (s_stats s) id0 0 id0 [SCreate (FHint id0); SCreate (FData id0)]) in *.
  destruct Hph as (HSle & Hn0 & Hg1 & HLI0 & Hloop & _ & _ & _ & Hm & _). rewrite Hm in *.
  set (rest := unlink_trace (m_dir m) sel ++ [SCreate (FData (m_last m + 1))]) in *.
  change (SFsync (FData (m_id m)) :: SFsync (FHint (m_id m)) :: rest) with ([SFsync (FData (m_id m)); SFsync (FHint (m_id m))] ++ rest) in *.
  rewrite app_assoc in *.
  intros Hwf. destruct (Hcrash Hwf) as [(s1 & Hfsrun & Hrep1) Hcimgs].
  assert (Hwfm : trace_wf (rev (m_trace m))) by (apply Forall_app in Hwf as [Hwf _]; apply Forall_app in Hwf; apply Hwf).
  pose proof (LI_good s S m0 [] HLI0) as Hgd0. cbn [m_dir m0] in Hgd0.
  destruct (create_pair_power (abs s) s0 syn0 (s_dir s) id0 Hsy0 Hrep0 Hn0 (inv_good s HI) Hg1 Hgd0) as ([f2 syn2] & PI0).
  destruct (merge_loop_wf c s S sel (PI s (s0, syn0)) (fun g => eq_refl) HSle (fun m1 M1 k l m2 M2 => merge_one_power c s S m1 M1 k l m2 M2 _) ord m0 [] m HLI0 Hloop Hwfm
              (ex_intro _ f2 (ex_intro _ syn2 PI0)))
    as (f & syn & Hwalk & Hrepm & Hsyn & Hout).
  destruct (fsync_pair_power (abs s) (m_dir m) (m_id m) f syn Hout Hrepm Hsyn) as (synB & Hw2 & HsyB).
  destruct (pwalk_app _ _ _ _ _ _ Hwalk Hw2) as [Hrun Himgs].
  (* phase 2: from here on every boundary is durable, and a power image is a crash image *)
  pose proof (prun_fs _ _ _ _ _ Hrun) as Hpre. rewrite fs_run_app, Hpre in Hfsrun.
  destruct (prun_of_fs rest f synB s1 Hfsrun) as (syn1' & Hprest).
  assert (Hrest_sh : sync_shaped rest = true) by (apply sync_shaped_app; [apply plain_shaped; apply unlink_trace_plain|reflexivity]).
  destruct (shaped_power rest Hrest_sh s0 _ (f, synB) (s1, syn1') Hpre HsyB Hprest) as [Hsy_final Hpi_rest].
  split; [exists (s1, syn1'); rewrite prun_app, Hrun; auto|].
  apply (pimages_app (s0, syn0) _ (f, synB) _ _ Hrun); [intros i Hi; left; exact (Himgs i Hi)|].
  intros img H. destruct (Hpi_rest img H) as (img' & Hi & He).
  destruct (Hcimgs img' Hi) as [Hok|Hok]; [left|right]; exact (img_ok_to_p img' img _ He Hok).
Qed.

Theorem step_power c s o : c_sync c = true -> Inv s -> op_ready c s o -> step_power_safe c s o.
Proof.
  intros Hsync HI Hr. destruct (is_merge o) eqn:Em; [|apply nomerge_power_safe; assumption].
  destruct o; try discriminate. apply merge_power_safe; assumption.
Qed.

Theorem power_safe_script c : c_sync c = true -> forall ops s st0,
  Inv s -> run_ready c s ops -> synced st0 -> rep (fst st0) (s_dir s) -> trace_wf (snd (run c s ops)) ->
  (exists st1, prun st0 (snd (run c s ops)) = Some st1 /\ synced st1 /\ rep (fst st1) (s_dir (fst (fst (run c s ops))))) /\
  forall img, power_image_of st0 (snd (run c s ops)) img ->
    exists n, (n <= length ops)%nat /\ img_ok_p img (abs (state_after c s ops n)).
Proof.
  intros Hsync. induction ops as [|o ops IH]; intros s st0 HI Hready Hsy Hrep Hwf; cbn [run snd fst] in *.
  - split; [exists st0; auto|]. apply pimages_nil. intros img Hp. exists 0%nat. split; [lia|]. cbn [state_after].
    destruct st0 as [s0 syn0]. exact (synced_crash_ok s0 syn0 _ (abs s) Hsy Hrep (inv_good s HI) img Hp).
  - destruct Hready as [Hr1 Hr2].
    pose proof (step_power c s o Hsync HI Hr1 st0 Hsy Hrep) as Hstep. pose proof (step_refines c s o HI Hr1) as Href.
    destruct (step c s o) as [[s1 r] t] eqn:Es. cbn [fst] in Hr2. destruct Href as (HI1 & _ & _).
    destruct (run c s1 ops) as [[s2 rs] ts] eqn:Er. cbn [snd fst] in *.
    unfold trace_wf in Hwf. apply Forall_app in Hwf as [Hwf1 Hwf2].
    destruct (Hstep Hwf1) as [(st1 & Hrun1 & Hsy1 & Hrep1) Himg1].
    specialize (IH s1 st1 HI1 Hr2 Hsy1 Hrep1). rewrite Er in IH. cbn [snd fst] in IH. destruct (IH Hwf2) as [(st2 & Hrun2 & Hsy2 & Hrep2) Himg2].
    split; [exists st2; rewrite prun_app, Hrun1; auto|].
    apply (pimages_app st0 t st1 ts _ Hrun1); intros img H.
    + destruct (Himg1 img H) as [H0|H1].
      * exists 0%nat. split; [lia|exact H0].
      * exists 1%nat. split; [cbn; lia|]. cbn [state_after]. rewrite Es. cbn [fst]. destruct ops; exact H1.
    + destruct (Himg2 img H) as (n & Hn & Hok). exists (S n). split; [cbn; lia|]. cbn [state_after]. rewrite Es. exact Hok.
Qed.

(* the sharp form: a power failure DURING operation [o], after [ops1] were acknowledged *)
Theorem power_during_op c s ops1 o st0 : c_sync c = true -> Inv s ->
  run_ready c s (ops1 ++ [o]) -> synced st0 -> rep (fst st0) (s_dir s) -> trace_wf (snd (run c s (ops1 ++ [o]))) ->
  let s1 := fst (fst (run c s ops1)) in
  exists st1, prun st0 (snd (run c s ops1)) = Some st1 /\
    forall img, power_image_of st1 (snd (step c s1 o)) img ->
      img_ok_p img (abs s1) \/ img_ok_p img (abs (fst (fst (step c s1 o)))).
Proof.
  intros Hsync HI Hready Hsy Hrep Hwf. cbv zeta. destruct (run_snoc c s ops1 o HI Hready Hwf) as (Hr1 & HI1 & Hop & Hwf1 & Hwf2).
  destruct (power_safe_script c Hsync ops1 s st0 HI Hr1 Hsy Hrep Hwf1) as [(st1 & Hrun & Hsy1 & Hrep1) _].
  exists st1. split; [exact Hrun|].
  pose proof (step_power c _ o Hsync HI1 Hop st1 Hsy1 Hrep1) as Hst. destruct (step c _ o) as [[s2 r2] t2]. exact (proj2 (Hst Hwf2)).
Qed.

(* a concrete power image, for the example of Props/C09.v: one file cut, the others whole *)
Definition bounded (st : pst) : Prop := forall f b, fst st f = Some b -> (snd st f <= length b)%nat.

Lemma pstep_bounded st c st' : bounded st -> pstep st c = Some st' -> bounded st'.
Proof.
  intros Hb H. refine (pstep_pointwise (fun ob n => forall b, ob = Some b -> (n <= length b)%nat) st c st' H Hb _ _ _); [|discriminate|].
  - intros x b E. inversion E. lia.
  - intros f b x n _ Hx y E. inversion E. rewrite app_length. specialize (Hx x eq_refl). lia.
Qed.

Lemma prun_bounded : forall t st st', bounded st -> prun st t = Some st' -> bounded st'.
Proof. exact (orun_inv_all pstep bounded pstep_bounded). Qed.

Lemma cut_one_is_image st g j : bounded st -> (snd st g <= j)%nat ->
  pimage st (fun f => match fst st f with Some b => Some (if fn_eqb f g then firstn j b else b) | None => None end).
Proof.
  intros Hb Hj f. destruct (fst st f) as [b|] eqn:Ef; [|reflexivity]. destruct (fn_eqb f g) eqn:E.
  - apply fn_eqb_eq in E. subst f. exists (Nat.min j (length b)). pose proof (Hb g b Ef). split; [lia|]. f_equal.
    destruct (Nat.le_ge_cases j (length b)); [rewrite Nat.min_l by assumption; reflexivity|rewrite Nat.min_r, firstn_all, firstn_all2 by assumption; reflexivity].
  - exists (length b). split; [split; [apply Hb; exact Ef|lia]|rewrite firstn_all; reflexivity].
Qed.
