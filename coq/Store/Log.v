(* Store/Log.v — the log of a directory: every record of every data file, in the order recovery
   replays them (ascending file id, then offset).  The index and the per-file counters are
   characterised as "consistent with the log" ([cons]); every engine operation and the recovery
   scan are steps on that relation. *)
From BC Require Import Store.Engine.
Open Scope N_scope.

Definition lentry := (N * N * entry)%type.          (* file id, offset, record *)

Fixpoint log_file (fid : N) (es : list entry) (pos : N) : list lentry :=
  match es with
  | [] => []
  | e :: es' => (fid, pos, e) :: log_file fid es' (pos + entry_size e)
  end.

Fixpoint log_of_dir (d : dir) : list lentry :=
  match d with
  | [] => []
  | (fid, f) :: d' => log_file fid (d_data f) 0 ++ log_of_dir d'
  end.

Definition loc_of (en : lentry) : loc :=
  let '(f, p, e) := en in mkLoc f p (entry_size e) (e_ts e).

(* what the index must say about key [k] after replaying [L] (starting from [acc]) *)
Fixpoint lastloc (L : list lentry) (k : bytes) (acc : option loc) : option loc :=
  match L with
  | [] => acc
  | (f, p, e) :: L' =>
    lastloc L' k (if beq k (e_key e)
                  then match e_val e with Some _ => Some (loc_of (f, p, e)) | None => None end
                  else acc)
  end.

Fixpoint lastval (L : list lentry) (k : bytes) (acc : option bytes) : option bytes :=
  match L with
  | [] => acc
  | (f, p, e) :: L' => lastval L' k (if beq k (e_key e) then e_val e else acc)
  end.

Definition is_live (i : index) (en : lentry) : bool :=
  let '(f, p, e) := en in
  match iget i (e_key e) with
  | Some l => (l_fid l =? f) && (l_pos l =? p)
  | None => false
  end.

Definition in_file (g : N) (en : lentry) : bool := let '(f, _, _) := en in f =? g.
Definition esize (en : lentry) : N := let '(_, _, e) := en in entry_size e.

(* ground truth of the counters of file [g] *)
Fixpoint nlive (L : list lentry) (i : index) (g : N) : N :=
  match L with
  | [] => 0
  | en :: L' => (if in_file g en && is_live i en then 1 else 0) + nlive L' i g
  end.
Fixpoint ndead (L : list lentry) (i : index) (g : N) : N :=
  match L with
  | [] => 0
  | en :: L' => (if in_file g en && negb (is_live i en) then 1 else 0) + ndead L' i g
  end.
Fixpoint bdead (L : list lentry) (i : index) (g : N) : N :=
  match L with
  | [] => 0
  | en :: L' => (if in_file g en && negb (is_live i en) then esize en else 0) + bdead L' i g
  end.
Definition has_file (L : list lentry) (g : N) : bool := existsb (in_file g) L.

(* distinct records sit at distinct (file, offset) *)
Definition at_pos (f p : N) (en : lentry) : bool := let '(f', p', _) := en in (f' =? f) && (p' =? p).
Fixpoint wfL (L : list lentry) : Prop :=
  match L with
  | [] => True
  | (f, p, e) :: L' => existsb (at_pos f p) L' = false /\ wfL L'
  end.

(* Consistency of (index, counters) with a log, except on the counter rows of files in [S]. *)
Definition cons_ex (S : N -> bool) (L : list lentry) (i : index) (x : stats_t) : Prop :=
  (forall k, iget i k = lastloc L k None) /\
  (forall g, S g = false ->
     live (sget0 x g) = nlive L i g /\ dead (sget0 x g) = ndead L i g /\ dead_bytes (sget0 x g) = bdead L i g) /\
  (forall g, S g = false -> (sget x g = None <-> has_file L g = false)).
Definition cons := cons_ex (fun _ => false).

Lemma entry_size_pos e : 0 < entry_size e.
Proof. unfold entry_size, blen. destruct (e_val e); lia. Qed.

Lemma lastloc_app L1 L2 k acc : lastloc (L1 ++ L2) k acc = lastloc L2 k (lastloc L1 k acc).
Proof. revert acc. induction L1 as [|[[f p] e] L1 IH]; intros acc; cbn [app lastloc]; auto. Qed.

Lemma lastval_app L1 L2 k acc : lastval (L1 ++ L2) k acc = lastval L2 k (lastval L1 k acc).
Proof. revert acc. induction L1 as [|[[f p] e] L1 IH]; intros acc; cbn [app lastval]; auto. Qed.

Lemma nlive_app L1 L2 i g : nlive (L1 ++ L2) i g = nlive L1 i g + nlive L2 i g.
Proof. induction L1 as [|en L1 IH]; cbn [app nlive]; [lia|]. rewrite IH. lia. Qed.
Lemma ndead_app L1 L2 i g : ndead (L1 ++ L2) i g = ndead L1 i g + ndead L2 i g.
Proof. induction L1 as [|en L1 IH]; cbn [app ndead]; [lia|]. rewrite IH. lia. Qed.
Lemma bdead_app L1 L2 i g : bdead (L1 ++ L2) i g = bdead L1 i g + bdead L2 i g.
Proof. induction L1 as [|en L1 IH]; cbn [app bdead]; [lia|]. rewrite IH. lia. Qed.
Lemma has_file_app L1 L2 g : has_file (L1 ++ L2) g = has_file L1 g || has_file L2 g.
Proof. unfold has_file. apply existsb_app. Qed.

Lemma has_file_snoc L f p e g : has_file (L ++ [(f, p, e)]) g = has_file L g || (f =? g).
Proof. rewrite has_file_app. cbn [has_file existsb in_file]. rewrite orb_false_r. reflexivity. Qed.

Lemma has_file_In L g : has_file L g = true <-> exists p e, In (g, p, e) L.
Proof.
  unfold has_file. rewrite existsb_exists. split.
  - intros ([[f p] e] & Hin & Hf). apply N.eqb_eq in Hf. subst f. eauto.
  - intros (p & e & Hin). exists (g, p, e). split; [exact Hin|apply N.eqb_refl].
Qed.

Lemma fresh_In f p L en : existsb (at_pos f p) L = false -> In en L -> at_pos f p en = false.
Proof.
  intros H Hin. destruct (at_pos f p en) eqn:E; [|reflexivity].
  rewrite <- H. symmetry. apply existsb_exists. eauto.
Qed.

Lemma wfL_app_l L1 L2 : wfL (L1 ++ L2) -> wfL L1.
Proof.
  induction L1 as [|[[f p] e] L1 IH]; cbn [app wfL]; [auto|].
  intros [H1 H2]. rewrite existsb_app in H1. apply orb_false_iff in H1. split; [tauto|auto].
Qed.

Lemma wfL_mid L1 f p e L2 : wfL (L1 ++ (f, p, e) :: L2) -> wfL (L1 ++ L2) /\ existsb (at_pos f p) (L1 ++ L2) = false.
Proof.
  induction L1 as [|[[f' p'] e'] L1 IH]; cbn [app wfL]; [tauto|].
  intros [Hx Hw]. destruct (IH Hw) as [Hw' Hf]. rewrite existsb_app in Hx |- *. apply orb_false_iff in Hx as [Hx1 Hx2].
  cbn [existsb at_pos] in Hx2. apply orb_false_iff in Hx2 as [Hx2 Hx3].
  split; [split; [rewrite Hx1; exact Hx3|exact Hw']|].
  cbn [existsb at_pos]. rewrite Hf, orb_false_r, (N.eqb_sym f'), (N.eqb_sym p'). exact Hx2.
Qed.

Lemma wfL_app_one L f p e : wfL (L ++ [(f, p, e)]) -> wfL L /\ existsb (at_pos f p) L = false.
Proof. intros H. apply wfL_mid in H. rewrite app_nil_r in H. exact H. Qed.

Lemma log_file_app fid es1 es2 pos :
  log_file fid (es1 ++ es2) pos = log_file fid es1 pos ++ log_file fid es2 (pos + data_size es1).
Proof.
  revert pos. induction es1 as [|e es1 IH]; intros pos; cbn [app log_file data_size].
  - rewrite N.add_0_r. reflexivity.
  - rewrite IH. rewrite N.add_assoc. reflexivity.
Qed.

(* the value of the record at the position [l] names *)
Definition val_at (L : list lentry) (l : loc) : option bytes :=
  match find (at_pos (l_fid l) (l_pos l)) L with
  | Some (_, _, e) => e_val e
  | None => None
  end.

Lemma iget_aset i k l k' : iget (aset i k l) k' = if beq k' k then Some l else iget i k'.
Proof. reflexivity. Qed.
Lemma iget_adel i k k' : iget (adel i k) k' = if beq k' k then None else iget i k'.
Proof. reflexivity. Qed.
Lemma sget_aset x f c g : sget (aset x f c) g = if g =? f then Some c else sget x g.
Proof. reflexivity. Qed.
Lemma sget_adel x f g : sget (adel x f) g = if g =? f then None else sget x g.
Proof. reflexivity. Qed.
Lemma sget0_aset x f c g : sget0 (aset x f c) g = if g =? f then c else sget0 x g.
Proof. unfold sget0. rewrite sget_aset. destruct (g =? f); reflexivity. Qed.
Lemma sget0_adel x f g : sget0 (adel x f) g = if g =? f then cnt0 else sget0 x g.
Proof. unfold sget0. rewrite sget_adel. destruct (g =? f); reflexivity. Qed.
