(* Store/FaultFsync.v — a set or delete whose fsync fails behind the completed append (C20, sync=always).
   The record is whole in the active file, the error is returned before the index is touched ([failed_fsync],
   Store/Engine.v).  Proved here, from any invariant state:
   (1) the running process does not see the record: every get answers as before the failed operation;
   (2) a restart at that point reads it: the directory opens to the map with the failed operation applied — the failed
       operation "may or may not have taken effect", and no other key is concerned;
   (3) with the repaired bookkeeping (6ff1d59: the record is booked as dead data of its file) every file that holds a
       record still has a row of the statistics — the invariant the merge selection rests on (Store/FaultUnlink.v,
       [rows_cover]); with the pinned code (no bookkeeping) it is lost, and the history
           set a 1; merge; set k v (fsync fails); merge; del k; merge; restart; get k
       computed in the model answers v under the pinned bookkeeping and nothing under the repaired one.
   What is NOT proved: the map a restart yields after the process has gone on with further operations and merges (a record
   in the log that the index never knew is outside [Inv]); that part is decided by the fault sweep and by the comparison
   of this model with the real store on every sweep case whose fault hit such an fsync (lib/c20.py). *)
From BC Require Import Base.Bytes Store.Codec Store.Engine Store.Log Store.Step Store.Cons Store.Inv Store.Refine
  Store.MergeLemmas Store.Merge Store.Sizes Store.Theorems Store.FaultUnlink.
Open Scope N_scope.

Lemma failed_fsync_shape fixed s k v s' t : Inv s -> failed_fsync fixed s k v = ROk (s', t) ->
  let e := mkEntry (s_clock s) k v in
  (exists pos, slog s' = slog s ++ [(s_active s, pos, e)]) /\
  sorted (s_dir s') /\ (forall id f, In (id, f) (s_dir s') -> hints_ok f) /\
  s_idx s' = s_idx s /\
  s_stats s' = (if fixed then aset (s_stats s) (s_active s) (add_dead (sget0 (s_stats s) (s_active s)) (entry_size e))
                else s_stats s).
Proof.
  intros HI H. unfold failed_fsync in H. rewrite (Inv_stale s HI) in H.
  destruct (inv_append s (mkEntry (s_clock s) k v) HI) as (d2 & pos & Ha & Hlog & (Hs' & _ & Hh') & _). rewrite Ha in H.
  injection H as <- _. unfold slog. cbn [s_dir s_idx s_stats].
  split; [exists pos; exact Hlog|]. split; [exact Hs'|]. split; [exact Hh'|split; reflexivity].
Qed.

(* (1) the running process does not see the record *)
Theorem failed_fsync_invisible fixed s k v s' t : Inv s -> failed_fsync fixed s k v = ROk (s', t) ->
  forall k', get s' k' = ROk (abs s k').
Proof.
  intros HI Hf k'. destruct (failed_fsync_shape fixed s k v s' t HI Hf) as ((pos & Hlog) & Hs' & _ & Hidx & _).
  apply get_sub; [exact Hs'| |rewrite Hlog; apply incl_appl, incl_refl].
  intros k0. rewrite Hidx. apply (index_exact s HI).
Qed.

(* (2) a restart at that point reads it: the failed operation applied, every other key as before *)
Theorem failed_fsync_then_restart fixed s k v s' t : Inv s -> failed_fsync fixed s k v = ROk (s', t) ->
  exists s'' t', reopen s' = ROk (s'', tt, t') /\ Inv s'' /\
    forall k', abs s'' k' = if beq k' k then v else abs s k'.
Proof.
  intros HI Hf. destruct (failed_fsync_shape fixed s k v s' t HI Hf) as ((pos & Hlog) & Hs' & Hh' & _).
  destruct (open_any (s_dir s') (s_clock s') Hs' Hh') as (s'' & t' & Ho & HI'' & Hl & _).
  exists s'', t'. split; [exact Ho|]. split; [exact HI''|].
  apply (abs_snoc s s'' (s_active s) pos (mkEntry (s_clock s) k v)). rewrite Hl. exact Hlog.
Qed.

(* Rows and counters after the failed fsync (C19 under this fault).  With the repaired bookkeeping the per-file counters remain EXACT with respect to the index: the record whose fsync
   failed is an entry of its file that no index entry points at, and it is booked as exactly that — one dead entry of
   its size.  (The index itself no longer equals "the latest record of every key in the log": that is the one clause of
   [cons] a record unknown to the index breaks, and the reason the running process does not see it.) *)
Lemma unindexed_not_live L i x a p e : cons L i x -> wfL (L ++ [(a, p, e)]) -> is_live i (a, p, e) = false.
Proof.
  intros (C1 & _) Hw. cbn [is_live]. destruct (iget i (e_key e)) as [l|] eqn:E; [|reflexivity]. rewrite C1 in E.
  destruct (lastloc_In _ _ _ E) as (f & p' & e' & Hin & -> & _). cbn [loc_of l_fid l_pos].
  destruct (wfL_app_one L a p e Hw) as [_ Hno]. apply not_true_is_false. intros Hfp.
  enough (existsb (at_pos a p) L = true) by congruence. apply existsb_exists. exists (f, p', e'). split; [exact Hin|exact Hfp].
Qed.

(* the other two clauses of [cons] survive such a record, booked as dead *)
Lemma counts_unindexed L i x a p e : cons L i x -> wfL (L ++ [(a, p, e)]) ->
  let L' := L ++ [(a, p, e)] in
  let x' := aset x a (add_dead (sget0 x a) (entry_size e)) in
  forall g, (live (sget0 x' g) = nlive L' i g /\ dead (sget0 x' g) = ndead L' i g /\ dead_bytes (sget0 x' g) = bdead L' i g) /\
            (sget x' g = None <-> has_file L' g = false).
Proof.
  intros HC Hw L' x' g. pose proof (unindexed_not_live L i x a p e HC Hw) as Hnl.
  destruct HC as (_ & C2 & C3). destruct (C2 g eq_refl) as (Lg & Dg & Bg).
  unfold L', x'. rewrite nlive_app, ndead_app, bdead_app, has_file_snoc, sget0_aset, sget_aset.
  cbn [nlive ndead bdead in_file esize]. rewrite Hnl, (N.eqb_sym g).
  destruct (N.eqb_spec a g) as [->|Hne]; cbn [andb negb add_dead live dead dead_bytes].
  - split; [repeat split; lia|]. rewrite orb_true_r. split; discriminate.
  - split; [repeat split; lia|]. rewrite orb_false_r. apply C3. reflexivity.
Qed.

Lemma failed_fsync_counts s k v s' t : Inv s -> failed_fsync true s k v = ROk (s', t) ->
  forall g, (live (sget0 (s_stats s') g) = nlive (slog s') (s_idx s') g /\
             dead (sget0 (s_stats s') g) = ndead (slog s') (s_idx s') g /\
             dead_bytes (sget0 (s_stats s') g) = bdead (slog s') (s_idx s') g) /\
            (sget (s_stats s') g = None <-> has_file (slog s') g = false).
Proof.
  intros HI Hf. destruct (failed_fsync_shape true s k v s' t HI Hf) as ((pos & Hlog) & Hs' & _ & -> & ->).
  rewrite Hlog. apply counts_unindexed; [exact (Inv_cons s HI)|].
  rewrite <- Hlog. apply wfL_log_of_dir. exact Hs'.
Qed.

(* (3) rows still cover files — with the repaired bookkeeping *)
Theorem failed_fsync_keeps_rows s k v s' t : Inv s -> failed_fsync true s k v = ROk (s', t) ->
  rows_cover (s_dir s') (s_stats s').
Proof. intros HI Hf g Hg E. apply (failed_fsync_counts s k v s' t HI Hf g) in E. unfold slog in E. congruence. Qed.

Theorem failed_fsync_counters_exact s k v s' t : Inv s -> failed_fsync true s k v = ROk (s', t) ->
  forall g, live (sget0 (s_stats s') g) = nlive (slog s') (s_idx s') g /\
            dead (sget0 (s_stats s') g) = ndead (slog s') (s_idx s') g /\
            dead_bytes (sget0 (s_stats s') g) = bdead (slog s') (s_idx s') g.
Proof. intros HI Hf g. exact (proj1 (failed_fsync_counts s k v s' t HI Hf g)). Qed.

(* ... and not with the pinned one: a fresh active file whose first record is the one whose fsync failed holds a
   record and has no row; the record is in the file and in no counter *)
Definition ff_cfg : cfg := mkCfg 2147483648 true 0 1 0 0.
Definition ff_before : st := fst (fst (run ff_cfg init [OSet [97] [49]; OMerge [[97]]])).

Example pinned_loses_the_row :
  match failed_fsync false ff_before [107] (Some [118]) with
  | ROk (s', _) => has_file (slog s') (s_active s') = true /\ sget (s_stats s') (s_active s') = None
  | _ => False
  end.
Proof. vm_compute. split; reflexivity. Qed.

Example pinned_counters_miss_the_record :
  match failed_fsync false ff_before [107] (Some [118]) with
  | ROk (s', _) => ndead (slog s') (s_idx s') (s_active s') = 1 /\ dead (sget0 (s_stats s') (s_active s')) = 0
  | _ => False
  end.
Proof. vm_compute. split; reflexivity. Qed.

(* the history of the finding, computed in the model under both bookkeepings *)
Definition ff_history (fixed : bool) : out :=
  match failed_fsync fixed ff_before [107] (Some [118]) with
  | ROk (s', _) =>
    let '(_, outs, _) := run ff_cfg s' [OMerge [[97]]; ODel [107]; OMerge [[97]]; OReopen; OGet [107]] in
    last outs VUnit
  | _ => VUnit
  end.

Theorem pinned_bookkeeping_resurrects : ff_history false = VVal (Some [118]).
Proof. vm_compute. reflexivity. Qed.
Theorem repaired_bookkeeping_does_not : ff_history true = VVal None.
Proof. vm_compute. reflexivity. Qed.

(* non-vacuity of (1)-(3): [ff_before] is an invariant state (it is reachable) *)
Lemma ff_before_inv : Inv ff_before.
Proof.
  apply run_inv. cbn [run_ready op_ready]. split; [exact I|]. split; [|exact I].
  intros sel0 H. vm_compute in H. injection H as <-. vm_compute. reflexivity.
Qed.

(* hence every later selection from that state is still closed downwards over the files that hold records *)
Theorem selection_closed_after_failed_fsync c s k v s' t sel0 : Inv s -> failed_fsync true s k v = ROk (s', t) ->
  select c s' = ROk sel0 ->
  forall id g, mem id sel0 = true -> has_file (log_of_dir (s_dir s')) g = true -> g <= id -> mem g sel0 = true.
Proof.
  intros HI Hf Hsel. apply (rows_make_selection_closed c s' sel0); [|exact Hsel].
  exact (failed_fsync_keeps_rows s k v s' t HI Hf).
Qed.
