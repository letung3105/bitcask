(* Store/Crash.v — a byte-level file system that executes the model's system-call traces; the crash
   images of a trace (the file system after any prefix of the calls, the last write cut at any byte);
   what the scanner reads from an image (Store/CodecProofs.v: a torn tail is end of input); and the
   crash safety of one append: every image opens to the state before the operation or the state
   after it.  Operations and scripts: Store/CrashScript.v.  Merge passes: Store/CrashMerge.v. *)
From BC Require Import Base.Bytes Base.Run Store.Codec Store.CodecProofs Store.Engine Store.Log Store.Step Store.Cons Store.Inv Store.Refine.
From Coq Require Import Lia List NArith ZArith Bool.
Import ListNotations.
Open Scope N_scope.

Definition fs := fname -> option bytes.
Definition fn_eqb (a b : fname) : bool :=
  match a, b with FData i, FData j | FHint i, FHint j => i =? j | _, _ => false end.
Lemma fn_eqb_eq a b : fn_eqb a b = true <-> a = b.
Proof. destruct a, b; cbn; rewrite ?N.eqb_eq; split; intros H; try discriminate; try (inversion H; reflexivity); subst; reflexivity. Qed.
Lemma fn_eqb_refl a : fn_eqb a a = true.
Proof. apply fn_eqb_eq. reflexivity. Qed.
Lemma fn_eqb_spec a b : reflect (a = b) (fn_eqb a b).
Proof. apply iff_reflect. symmetry. apply fn_eqb_eq. Qed.
Definition fupd (s : fs) (f : fname) (v : option bytes) : fs := fun g => if fn_eqb g f then v else s g.
Lemma fupd_same s f v : fupd s f v f = v.
Proof. unfold fupd. rewrite fn_eqb_refl. reflexivity. Qed.
Lemma fupd_other s f v g : g <> f -> fupd s f v g = s g.
Proof. intros H. unfold fupd. destruct (fn_eqb_spec g f); [contradiction|reflexivity]. Qed.

Definition fs_step (s : fs) (c : syscall) : option fs :=
  match c with
  | SCreate f => match s f with None => Some (fupd s f (Some [])) | Some _ => None end      (* O_CREAT|O_EXCL *)
  | SWrite f b => match s f with Some x => Some (fupd s f (Some (x ++ b))) | None => None end   (* O_APPEND *)
  | SFsync f => match s f with Some _ => Some s | None => None end
  | SUnlink f => match s f with Some _ => Some (fupd s f None) | None => None end
  end.
Fixpoint fs_run (s : fs) (t : list syscall) : option fs :=
  match t with [] => Some s | c :: t' => match fs_step s c with Some s' => fs_run s' t' | None => None end end.

Lemma fs_run_app t1 : forall s t2, fs_run s (t1 ++ t2) = match fs_run s t1 with Some s' => fs_run s' t2 | None => None end.
Proof. intros s t2. exact (orun_app fs_step t1 t2 s). Qed.

Inductive image_of (s0 : fs) (t : list syscall) (img : fs) : Prop :=
| img_boundary t1 t2 : t = t1 ++ t2 -> fs_run s0 t1 = Some img -> image_of s0 t img
| img_torn t1 f b1 b2 t2 : t = t1 ++ SWrite f (b1 ++ b2) :: t2 -> b2 <> [] ->
    fs_run s0 (t1 ++ [SWrite f b1]) = Some img -> image_of s0 t img.

(* the calls [t] take [s] to [s'], and every crash image on the way satisfies [P] *)
Definition walk (P : fs -> Prop) (s : fs) (t : list syscall) (s' : fs) : Prop :=
  fs_run s t = Some s' /\ forall i, image_of s t i -> P i.

Lemma walk_nil (P : fs -> Prop) s : P s -> walk P s [] s.
Proof.
  intros H. split; [reflexivity|]. intros i [t1 t2 E R|t1 f b1 b2 t2 E _ _].
  - symmetry in E. apply app_eq_nil in E as [-> _]. injection R as <-. exact H.
  - destruct t1; discriminate.
Qed.

Lemma walk_cons (P : fs -> Prop) s c s1 t s' : fs_step s c = Some s1 -> P s ->
  (forall f b1 b2 i, c = SWrite f (b1 ++ b2) -> b2 <> [] -> fs_step s (SWrite f b1) = Some i -> P i) ->
  walk P s1 t s' -> walk P s (c :: t) s'.
Proof.
  intros Hs H0 Htorn [Hr Hi]. split; [cbn [fs_run]; rewrite Hs; exact Hr|].
  intros i [t1 t2 E R|t1 f b1 b2 t2 E Hb R]; destruct t1 as [|x t1]; cbn [app] in E.
  - injection R as <-. exact H0.
  - injection E as <- E. cbn [fs_run] in R. rewrite Hs in R. exact (Hi i (img_boundary _ _ _ t1 t2 E R)).
  - injection E as -> _. cbn [app fs_run] in R. destruct (fs_step s (SWrite f b1)) as [s2|] eqn:Es; [|discriminate].
    injection R as <-. exact (Htorn f b1 b2 s2 eq_refl Hb Es).
  - injection E as <- E. cbn [app fs_run] in R. rewrite Hs in R. exact (Hi i (img_torn _ _ _ t1 f b1 b2 t2 E Hb R)).
Qed.

Lemma walk_write (P : fs -> Prop) s f x b t s' : s f = Some x -> P s ->
  (forall b1 b2, b = b1 ++ b2 -> b2 <> [] -> P (fupd s f (Some (x ++ b1)))) ->
  walk P (fupd s f (Some (x ++ b))) t s' -> walk P s (SWrite f b :: t) s'.
Proof.
  intros Hf H0 Htorn. apply walk_cons; [cbn [fs_step]; rewrite Hf; reflexivity|exact H0|].
  intros g b1 b2 i E Hb Hs. injection E as <- ->. cbn [fs_step] in Hs. rewrite Hf in Hs. injection Hs as <-. exact (Htorn b1 b2 eq_refl Hb).
Qed.

Lemma walk_fsync (P : fs -> Prop) s f x t s' : s f = Some x -> P s -> walk P s t s' -> walk P s (SFsync f :: t) s'.
Proof. intros Hf H0. apply walk_cons; [cbn [fs_step]; rewrite Hf; reflexivity|exact H0|discriminate]. Qed.

Lemma walk_create (P : fs -> Prop) s f t s' : s f = None -> P s -> walk P (fupd s f (Some [])) t s' -> walk P s (SCreate f :: t) s'.
Proof. intros Hf H0. apply walk_cons; [cbn [fs_step]; rewrite Hf; reflexivity|exact H0|discriminate]. Qed.

Lemma walk_unlink (P : fs -> Prop) s f x t s' : s f = Some x -> P s -> walk P (fupd s f None) t s' -> walk P s (SUnlink f :: t) s'.
Proof. intros Hf H0. apply walk_cons; [cbn [fs_step]; rewrite Hf; reflexivity|exact H0|discriminate]. Qed.

Lemma walk_app (P : fs -> Prop) s t s1 ext s' : walk P s t s1 -> walk P s1 ext s' -> walk P s (t ++ ext) s'.
Proof.
  intros [Hrun H1] [Hrun2 H2]. split; [rewrite fs_run_app, Hrun; exact Hrun2|].
  intros i [t1 t2 E R|t1 g b1 b2 t2 E Hb R]; apply app_eq_app_cases in E as [(q1 & Hq1 & E1 & E2)|(p2 & -> & E2)].
  - exact (H1 i (img_boundary _ _ _ t1 q1 E1 R)).
  - rewrite fs_run_app, Hrun in R. exact (H2 i (img_boundary _ _ _ p2 t2 E2 R)).
  - (* the torn write belongs to [t] *)
    destruct q1 as [|x q1]; [contradiction|]. injection E2 as <- _. exact (H1 i (img_torn _ _ _ t1 g b1 b2 q1 E1 Hb R)).
  - rewrite <- app_assoc, fs_run_app, Hrun in R. exact (H2 i (img_torn _ _ _ p2 g b1 b2 t2 E2 Hb R)).
Qed.

Lemma walk_mono (P Q : fs -> Prop) s t s' : (forall i, P i -> Q i) -> walk P s t s' -> walk Q s t s'.
Proof. intros H [Hr Hi]. split; [exact Hr|]. intros i Hin. exact (H i (Hi i Hin)). Qed.

(* [torn]: the data file [fst torn] carries the extra bytes [snd torn] after its records *)
Definition rep_torn (s : fs) (d : dir) (torn : N * bytes) : Prop :=
  forall id, match dir_get d id with
             | Some f => s (FData id) = Some (file_bytes (d_data f) ++ (if id =? fst torn then snd torn else [])) /\
                         s (FHint id) = option_map hint_bytes (d_hint f)
             | None => s (FData id) = None /\ s (FHint id) = None
             end.
Definition rep (s : fs) (d : dir) : Prop := rep_torn s d (0, []).

Lemma rep_torn_nil s d a : rep_torn s d (a, []) <-> rep s d.
Proof.
  unfold rep, rep_torn. cbn [fst snd]. split; intros H id; specialize (H id); destruct (dir_get d id); auto;
    destruct (id =? a), (id =? 0); exact H.
Qed.

Lemma rep_iff s d : rep s d <->
  forall id, match dir_get d id with
             | Some f => s (FData id) = Some (file_bytes (d_data f)) /\ s (FHint id) = option_map hint_bytes (d_hint f)
             | None => s (FData id) = None /\ s (FHint id) = None
             end.
Proof.
  unfold rep, rep_torn. cbn [fst snd]. split; intros H id; specialize (H id); destruct (dir_get d id); auto;
    destruct (id =? 0); rewrite app_nil_r in *; exact H.
Qed.

Lemma rep_get s d id f : rep s d -> dir_get d id = Some f ->
  s (FData id) = Some (file_bytes (d_data f)) /\ s (FHint id) = option_map hint_bytes (d_hint f).
Proof. intros Hr Hg. pose proof (proj1 (rep_iff s d) Hr id) as H. rewrite Hg in H. exact H. Qed.

Lemma rep_none s d id : rep s d -> dir_get d id = None -> s (FData id) = None /\ s (FHint id) = None.
Proof. intros Hr Hg. specialize (Hr id). rewrite Hg in Hr. exact Hr. Qed.

Lemma walk_rep (P : fs -> Prop) s0 t d : (exists s1, walk P s0 t s1 /\ rep s1 d) <->
  (exists s1, fs_run s0 t = Some s1 /\ rep s1 d) /\ forall i, image_of s0 t i -> P i.
Proof.
  split.
  - intros (s1 & [Hr Hi] & Hrep). split; [exists s1; split; assumption|exact Hi].
  - intros [(s1 & Hr & Hrep) Hi]. exists s1. split; [split; assumption|exact Hrep].
Qed.

(* What the scanner reads.  A file without hint file is scanned record by record: its bytes are the
   records of [d] and possibly a torn tail (a strict prefix of some record), which reads as end of
   input.  Of a file with a hint file only the hint file is scanned (its last entry may be torn); the
   data file is not read at start-up, whatever follows the records the hints describe. *)
Definition torn_entry (tail : bytes) : Prop := tail = [] \/ exists e q, wf_entry e /\ q <> [] /\ enc_entry e = tail ++ q.
Definition torn_hint (tail : bytes) : Prop := tail = [] \/ exists h q, wf_hint h /\ q <> [] /\ enc_hint h = tail ++ q.

Definition reads_as (img : fs) (d : dir) : Prop :=
  forall id, match dir_get d id with
             | Some f =>
               match d_hint f with
               | None => (exists tail, img (FData id) = Some (file_bytes (d_data f) ++ tail) /\ torn_entry tail) /\ img (FHint id) = None
               | Some hs => (exists b, img (FData id) = Some (file_bytes (d_data f) ++ b)) /\
                            (exists tail, img (FHint id) = Some (hint_bytes hs ++ tail) /\ torn_hint tail)
               end
             | None => img (FData id) = None /\ img (FHint id) = None
             end.

Lemma rep_torn_reads img d a p : rep_torn img d (a, p) -> torn_entry p -> reads_as img d.
Proof.
  intros Hr Ht id. specialize (Hr id). cbn [fst snd] in Hr. destruct (dir_get d id) as [f|]; [|exact Hr]. destruct Hr as [Hd Hh].
  destruct (d_hint f) as [hs|]; cbn [option_map] in Hh.
  - split; [eexists; exact Hd|]. exists []. rewrite app_nil_r. split; [exact Hh|left; reflexivity].
  - split; [|exact Hh]. eexists. split; [exact Hd|]. destruct (id =? a); [exact Ht|left; reflexivity].
Qed.

Lemma rep_reads img d : rep img d -> reads_as img d.
Proof. intros H. apply (rep_torn_reads img d 0 []); [exact H|left; reflexivity]. Qed.

Lemma rep_set s s' d a g : rep s d ->
  s' (FData a) = Some (file_bytes (d_data g)) -> s' (FHint a) = option_map hint_bytes (d_hint g) ->
  (forall x, x <> FData a -> x <> FHint a -> s' x = s x) -> rep s' (dir_set d a g).
Proof.
  intros Hr Hd Hh Ho. apply rep_iff. intros id. rewrite dir_get_set. destruct (N.eqb_spec a id) as [<-|Hne]; [split; assumption|].
  rewrite !Ho by congruence. exact (proj1 (rep_iff s d) Hr id).
Qed.

Lemma blen_file_bytes es : blen (file_bytes es) = data_size es.
Proof. induction es as [|e es IH]; cbn [file_bytes data_size]; [reflexivity|]. rewrite blen_app, enc_entry_size, IH. reflexivity. Qed.

Definition wf_dir (d : dir) : Prop := forall id f, In (id, f) d -> Forall wf_entry (d_data f).

Definition wf_hints (d : dir) : Prop := forall id f hs, In (id, f) d -> d_hint f = Some hs -> Forall wf_hint hs.

Definition dir_hints_ok (d : dir) : Prop := forall id f, In (id, f) d -> hints_ok f.

Lemma hints_of_fit : forall es pos h, In h (hints_of es pos) -> h_pos h + h_len h <= pos + data_size es.
Proof.
  induction es as [|e es IH]; intros pos h Hin; cbn [hints_of data_size In] in *; [destruct Hin|].
  destruct Hin as [<-|Hin]; [cbn; lia|]. specialize (IH _ _ Hin). lia.
Qed.

Lemma hints_ok_fit f hs x : hints_ok f -> d_hint f = Some hs ->
  Forall (fun h => h_pos h + h_len h <= blen (file_bytes (d_data f) ++ x)) hs.
Proof.
  intros Hok Eh. destruct (hints_ok_some f hs Hok Eh) as [-> _].
  rewrite Forall_forall. intros h Hh. apply hints_of_fit in Hh. rewrite blen_app, blen_file_bytes. lia.
Qed.

(* what [reads_as] means for the scanner: record by record for files without hint file, hint by hint
   otherwise — torn tails read as end of input, provided the torn record is representable *)
Theorem reads_scan img d : reads_as img d -> wf_dir d -> wf_hints d -> dir_hints_ok d ->
  forall id f, dir_get d id = Some f ->
    match d_hint f with
    | None => exists b, img (FData id) = Some b /\ scan dec_entry b = Some (layout 0 (d_data f))
    | Some hs => (exists b, img (FHint id) = Some b /\ scan dec_hint b = Some (hint_layout 0 hs)) /\
                 (* and every hint lies within the data file, whose bytes are not read *)
                 (exists bd, img (FData id) = Some bd /\ Forall (fun h => h_pos h + h_len h <= blen bd) hs)
    end.
Proof.
  intros Hr Hw Hwh Hok id f Hg. specialize (Hr id). rewrite Hg in Hr. pose proof (dir_get_In _ _ _ Hg) as Hin.
  destruct (d_hint f) as [hs|] eqn:Eh.
  - destruct Hr as [(bx & Hbd) (tail & Hb & Ht)]. split.
    2:{ eexists. split; [exact Hbd|exact (hints_ok_fit f hs bx (Hok id f Hin) Eh)]. }
    eexists. split; [exact Hb|]. pose proof (Hwh id f hs Hin Eh) as Hhs.
    destruct Ht as [->|(h & q & Hwfh & Hq & E)]; [rewrite app_nil_r; apply scan_hint_file; exact Hhs|].
    eapply scan_torn_hint_file; eauto.
  - destruct Hr as [(tail & Hb & Ht) _]. eexists. split; [exact Hb|]. pose proof (Hw id f Hin) as Hf.
    destruct Ht as [->|(e & q & Hwfe & Hq & E)]; [rewrite app_nil_r; apply scan_file; exact Hf|].
    eapply scan_torn_file; eauto.
Qed.

Lemma sorted_app_inv_l (d1 d2 : dir) : sorted (d1 ++ d2) -> sorted d1.
Proof.
  induction d1 as [|[i g] d1 IH]; cbn [app sorted]; [auto|]. intros [Hg Hs]. split; [|apply IH; exact Hs].
  unfold ids_gt in *. apply Forall_app in Hg. tauto.
Qed.

Definition sync_calls (c : cfg) (a : N) : list syscall := if c_sync c then [SFsync (FData a)] else [].

Lemma write_shape c s k v s' l t : Inv s -> write c s k v = ROk (s', l, t) ->
  exists fa, dir_get (s_dir s) (s_active s) = Some fa /\ d_hint fa = None /\
    let a := s_active s in
    let e := mkEntry (s_clock s) k v in
    let d2 := dir_set (s_dir s) a (mkFile (d_data fa ++ [e]) None) in
    (t = SWrite (FData a) (enc_entry e) :: sync_calls c a /\ s_dir s' = d2 /\
     s_active s' = a /\ s_last s' = s_last s /\ s_written s' = s_written s + entry_size e /\ s_written s' <= c_max c) \/
    (t = SWrite (FData a) (enc_entry e) :: sync_calls c a ++ [SCreate (FData (s_last s + 1))] /\
     s_dir s' = d2 ++ [(s_last s + 1, empty_file)] /\ dir_get d2 (s_last s + 1) = None /\
     s_active s' = s_last s + 1 /\ s_last s' = s_last s + 1 /\ s_written s' = 0).
Proof.
  intros (Hs & Hle & Hh & Hst & Hact & (fa & Hfa & Hfh) & HC) H. exists fa. split; [exact Hfa|]. split; [exact Hfh|].
  unfold write in H. rewrite Hst in H. unfold append_data in H. rewrite Hfa in H. rewrite Hfh in H.
  cbv zeta. set (e := mkEntry (s_clock s) k v) in *. set (a := s_active s) in *.
  set (d2 := dir_set (s_dir s) a (mkFile (d_data fa ++ [e]) None)) in *.
  destruct (c_max c <? s_written s + entry_size e) eqn:Er.
  - unfold new_active in H. cbn [s_last s_dir s_idx s_stats s_clock] in H.
    assert (Hn : dir_get d2 (s_last s + 1) = None).
    { unfold d2. rewrite dir_get_set. replace (a =? s_last s + 1) with false by (symmetry; apply N.eqb_neq; unfold a; lia).
      apply (ids_le_get_none _ (s_last s)); [exact Hle|lia]. }
    rewrite Hn in H. inversion H; subst. right. cbn [app s_dir s_active s_last s_written].
    split; [reflexivity|]. split; [apply dir_set_new; exact Hn|]. auto.
  - inversion H; subst. left. cbn [app s_dir s_active s_last s_written]. apply N.ltb_ge in Er. auto 6.
Qed.

Lemma rep_after_partial s d a fa p : rep s d -> dir_get d a = Some fa ->
  rep_torn (fupd s (FData a) (Some (file_bytes (d_data fa) ++ p))) d (a, p).
Proof.
  intros Hr Hg id. cbn [fst snd]. destruct (N.eqb_spec id a) as [->|Hne].
  - rewrite Hg, fupd_same. rewrite fupd_other by discriminate. split; [reflexivity|exact (proj2 (rep_get s d a fa Hr Hg))].
  - rewrite !fupd_other by congruence. pose proof (proj1 (rep_iff s d) Hr id) as H. destruct (dir_get d id); [rewrite app_nil_r|]; exact H.
Qed.

Lemma rep_after_write s d a fa e : rep s d -> dir_get d a = Some fa -> d_hint fa = None ->
  rep (fupd s (FData a) (Some (file_bytes (d_data fa) ++ enc_entry e))) (dir_set d a (mkFile (d_data fa ++ [e]) None)).
Proof.
  intros Hr Hg Hh. apply (rep_set s); cbn [d_data d_hint]; [exact Hr|rewrite fupd_same, file_bytes_app; reflexivity| |intros x Hx _; apply fupd_other; exact Hx].
  rewrite fupd_other by discriminate. rewrite (proj2 (rep_get s d a fa Hr Hg)), Hh. reflexivity.
Qed.

Lemma rep_after_create s d id : rep s d -> dir_get d id = None ->
  fs_step s (SCreate (FData id)) = Some (fupd s (FData id) (Some [])) /\ rep (fupd s (FData id) (Some [])) (d ++ [(id, empty_file)]).
Proof.
  intros Hr Hn. destruct (rep_none s d id Hr Hn) as [H1 H2]. unfold fs_step. rewrite H1. split; [reflexivity|].
  rewrite <- (dir_set_new d id empty_file Hn).
  apply (rep_set s); [exact Hr|apply fupd_same|rewrite fupd_other by discriminate; exact H2|intros x Hx _; apply fupd_other; exact Hx].
Qed.

Lemma walk_sync (P : fs -> Prop) s c a x t s' : s (FData a) = Some x -> P s -> walk P s t s' -> walk P s (sync_calls c a ++ t) s'.
Proof. intros Hs H0 Ht. unfold sync_calls. destruct (c_sync c); [exact (walk_fsync P s _ x t s' Hs H0 Ht)|exact Ht]. Qed.

(* [d] is a directory whose hint files describe their data files, and opening it yields the map [m] *)
Definition recovers_to (d : dir) (m : bytes -> option bytes) : Prop :=
  dir_hints_ok d /\
  forall clk, exists s' t, open d clk = ROk (s', tt, t) /\ Inv s' /\ forall k, abs s' k = m k.

Lemma recovers_log d : sorted d -> (forall id f, In (id, f) d -> hints_ok f) ->
  recovers_to d (fun k => lastval (log_of_dir d) k None).
Proof.
  intros Hs Hh. split; [exact Hh|]. intros clk. destruct (open_any d clk Hs Hh) as (s' & t & Ho & HI & Hl & _). exists s', t. split; [exact Ho|]. split; [exact HI|].
  intros k. unfold abs. rewrite Hl. reflexivity.
Qed.

(* The verdict for an image: it is represented — up to a torn tail that is a strict prefix of the
   record in flight — by a directory that recovers to the map [m]. *)
Definition image_recovers (img : fs) (m : bytes -> option bytes) : Prop :=
  exists d, reads_as img d /\ recovers_to d m.

Definition good (m0 : bytes -> option bytes) (d : dir) : Prop :=
  sorted d /\ (forall id f, In (id, f) d -> hints_ok f) /\ forall k, lastval (log_of_dir d) k None = m0 k.

Lemma good_recovers m0 d : good m0 d -> recovers_to d m0.
Proof.
  intros (Hs & Hh & Hv). split; [exact Hh|]. intros clk. destruct (recovers_log d Hs Hh) as [_ Hrl].
  destruct (Hrl clk) as (s' & t & Ho & HI & Ha). exists s', t.
  split; [exact Ho|]. split; [exact HI|]. intros k. rewrite Ha. apply Hv.
Qed.

Lemma good_img m0 img d : reads_as img d -> good m0 d -> image_recovers img m0.
Proof. intros Hr Hg. exists d. split; [exact Hr|apply good_recovers; exact Hg]. Qed.

Lemma rep_good_ok m0 f d : rep f d -> good m0 d -> image_recovers f m0.
Proof. intros Hr. apply good_img, rep_reads, Hr. Qed.

Lemma inv_good s : Inv s -> good (abs s) (s_dir s).
Proof.
  intros HI. split; [exact (Inv_sorted s HI)|]. split; [exact (Inv_hints s HI)|reflexivity].
Qed.

Lemma good_app_empty m0 d m id : good m0 d -> ids_le d m -> m < id -> good m0 (d ++ [(id, empty_file)]).
Proof.
  intros (Hs & Hh & Hv) Hle Hlt. split; [exact (sorted_snoc d id _ Hs (ids_le_lt d m id Hle Hlt))|]. split.
  - intros j f Hin. apply in_app_or in Hin as [Hin|[Hin|[]]]; [eauto|]. inversion Hin; subst. exact I.
  - intros k. rewrite log_of_dir_app_empty. apply Hv.
Qed.

Lemma good_prefix m0 d id f : good m0 (d ++ [(id, f)]) -> d_data f = [] -> good m0 d.
Proof.
  intros (Hs & Hh & Hv) Hd. split; [eapply sorted_app_inv_l; exact Hs|]. split.
  - intros j g Hin. apply (Hh j g). apply in_or_app. left. exact Hin.
  - intros k. rewrite <- Hv, log_of_dir_app. cbn [log_of_dir]. rewrite Hd. cbn [log_file]. rewrite !app_nil_r. reflexivity.
Qed.

(* every record and hint the trace writes is representable (lengths below 2^64, timestamps in i64) *)
Definition call_wf (c : syscall) : Prop :=
  match c with
  | SWrite (FData _) b => exists e, wf_entry e /\ b = enc_entry e
  | SWrite (FHint _) b => exists h, wf_hint h /\ b = enc_hint h
  | _ => True
  end.
Definition trace_wf (t : list syscall) : Prop := Forall call_wf t.

(* Every image of the trace of an append reads as the directory before (the record missing or torn)
   or as a directory after it (with or without the next active file, which is empty). *)
Theorem write_safe c s k v s' l t s0 : Inv s -> write c s k v = ROk (s', l, t) -> rep s0 (s_dir s) -> trace_wf t ->
  (exists s1, fs_run s0 t = Some s1 /\ rep s1 (s_dir s')) /\
  forall img, image_of s0 t img -> image_recovers img (abs s) \/ image_recovers img (fun k' => lastval (slog s') k' None).
Proof.
  intros HI Hw Hr Hwft. set (after := fun k' => lastval (slog s') k' None).
  set (P := fun i => image_recovers i (abs s) \/ image_recovers i after).
  apply walk_rep. fold after. fold P.
  destruct (write_ok c s k v HI) as (s1' & l' & t' & Hw' & _ & _ & _ & _ & _ & Hs' & _ & Hh' & _).
  rewrite Hw in Hw'. inversion Hw'; subst s1' l' t'. clear Hw'.
  assert (Hg' : good after (s_dir s')).
  { split; [exact Hs'|]. split; [exact Hh'|reflexivity]. }
  pose proof (inv_good s HI) as Hg0.
  destruct (write_shape c s k v s' l t HI Hw) as (fa & Hfa & Hfh & Hshape). cbv zeta in Hshape.
  set (e := mkEntry (s_clock s) k v) in *. set (a := s_active s) in *.
  set (d2 := dir_set (s_dir s) a (mkFile (d_data fa ++ [e]) None)) in *.
  assert (Hwfe : exists e', wf_entry e' /\ enc_entry e = enc_entry e').
  { destruct Hshape as [(Ht & _)|(Ht & _)]; rewrite Ht in Hwft; inversion Hwft as [|? ? Hc _]; subst; exact Hc. }
  destruct Hwfe as (e' & Hwfe & Ee').
  destruct (rep_get s0 (s_dir s) a fa Hr Hfa) as [Hfd _].
  pose proof (rep_after_write s0 (s_dir s) a fa e Hr Hfa Hfh) as Hr1. fold d2 in Hr1.
  set (s1 := fupd s0 (FData a) (Some (file_bytes (d_data fa) ++ enc_entry e))) in *.
  assert (Hok1 : P s1).
  { right. apply (rep_good_ok _ _ _ Hr1). destruct Hshape as [(_ & Hd & _)|(_ & Hd & _)]; rewrite Hd in Hg'; [exact Hg'|].
    eapply good_prefix; [exact Hg'|reflexivity]. }
  (* up to the end of the write and its fsync, whatever follows *)
  assert (Hwalk : forall rest s2, walk P s1 rest s2 -> walk P s0 (SWrite (FData a) (enc_entry e) :: sync_calls c a ++ rest) s2).
  { intros rest s2 Hrest. apply (walk_write P s0 _ _ _ _ _ Hfd); [left; exact (rep_good_ok _ _ _ Hr Hg0)| |].
    - intros b1 b2 Eb Hb. left. apply (good_img _ _ (s_dir s)); [|exact Hg0].
      apply (rep_torn_reads _ _ a b1 (rep_after_partial s0 (s_dir s) a fa b1 Hr Hfa)). right. exists e', b2. rewrite <- Ee'. auto.
    - apply (walk_sync P s1 c a _ rest s2 (fupd_same _ _ _) Hok1 Hrest). }
  destruct Hshape as [(Ht & Hd & _)|(Ht & Hd & Hn & _)]; rewrite Ht, Hd.
  - exists s1. split; [|exact Hr1]. rewrite <- (app_nil_r (sync_calls c a)). apply Hwalk, walk_nil, Hok1.
  - (* rollover: one more call, the creation of the next active file *)
    destruct (rep_after_create s1 d2 (s_last s + 1) Hr1 Hn) as [_ Hr2]. eexists. split; [|exact Hr2].
    apply Hwalk, walk_create; [exact (proj1 (rep_none s1 d2 _ Hr1 Hn))|exact Hok1|].
    apply walk_nil. right. rewrite Hd in Hg'. exact (rep_good_ok _ _ _ Hr2 Hg').
Qed.
