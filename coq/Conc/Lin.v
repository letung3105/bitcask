(* Conc/Lin.v — linearizability from commit points, once and for all.
   An instrumented execution is a sequence of events of threads: an operation is invoked, at some
   later instant it COMMITS (it takes effect atomically on a ghost copy of the sequential
   specification, which computes its result), later still it returns that result.  We prove that
   the history of invocations and returns of any such execution is linearizable: the order of the
   commits is a witness that explains every result and respects real time. *)
From Coq Require Import List Arith Lia Bool.
Import ListNotations.
From BC Require Import Base.Run.

Section Lin.
Variables (S O R : Type).
Variable spec : S -> O -> S * R.
Variable Req : R -> R -> bool.

Inductive iev := IInv (t : nat) (o : O) | ICommit (t : nat) | IRet (t : nat) (r : R).

Inductive tstatus := Idle | Pending (id : nat) (o : O) | Committed (id : nat) (o : O) (r : R).

(* the monitor: ghost state, per-thread status, operations committed so far (id, op, result) in
   commit order, ids of operations that have returned, and for each invoked operation the operations
   that had already returned when it was invoked; the id of an operation = position of its invocation *)
Record mon := mkMon {
  ghost : S;
  status : nat -> tstatus;
  lin : list (nat * O * R);
  returned : list nat;
  before : list (nat * list nat);
  clock : nat
}.

Definition set_status (f : nat -> tstatus) (t : nat) (x : tstatus) : nat -> tstatus :=
  fun u => if Nat.eqb u t then x else f u.

Definition mstep (m : mon) (e : iev) : option mon :=
  match e with
  | IInv t o =>
    match status m t with
    | Idle => Some (mkMon (ghost m) (set_status (status m) t (Pending (clock m) o)) (lin m) (returned m)
                          ((clock m, returned m) :: before m) (Datatypes.S (clock m)))
    | _ => None
    end
  | ICommit t =>
    match status m t with
    | Pending id o =>
      let '(s', r) := spec (ghost m) o in
      Some (mkMon s' (set_status (status m) t (Committed id o r)) (lin m ++ [(id, o, r)]) (returned m) (before m) (Datatypes.S (clock m)))
    | _ => None
    end
  | IRet t r =>
    match status m t with
    | Committed id o r' =>
      if Req r r' then Some (mkMon (ghost m) (set_status (status m) t Idle) (lin m) (returned m ++ [id]) (before m) (Datatypes.S (clock m)))
      else None
    | _ => None
    end
  end.

Fixpoint mrun (m : mon) (es : list iev) : option mon :=
  match es with [] => Some m | e :: es' => match mstep m e with Some m' => mrun m' es' | None => None end end.

Definition minit (s0 : S) : mon := mkMon s0 (fun _ => Idle) [] [] [] 0.

Lemma set_status_same f t x : set_status f t x t = x.
Proof. unfold set_status. rewrite Nat.eqb_refl. reflexivity. Qed.
Lemma set_status_other f t x u : u <> t -> set_status f t x u = f u.
Proof. intros H. unfold set_status. apply Nat.eqb_neq in H. rewrite H. reflexivity. Qed.

Lemma mrun_app m a b : mrun m (a ++ b) = match mrun m a with Some m' => mrun m' b | None => None end.
Proof. exact (orun_app mstep a b m). Qed.

(* replaying the committed operations sequentially from [s]: final state, and whether every recorded
   result is the one the specification computes *)
Fixpoint replay (s : S) (l : list (nat * O * R)) : S * bool :=
  match l with
  | [] => (s, true)
  | (_, o, r) :: l' => let '(s', r') := spec s o in let '(sf, ok) := replay s' l' in (sf, Req r r' && ok)
  end.

Lemma replay_app s l1 l2 : replay s (l1 ++ l2) =
  let '(s1, ok1) := replay s l1 in let '(s2, ok2) := replay s1 l2 in (s2, ok1 && ok2).
Proof.
  revert s. induction l1 as [|[[i o] r] l1 IH]; intros s; cbn [app replay].
  - destruct (replay s l2). reflexivity.
  - destruct (spec s o) as [s' r']. rewrite IH. destruct (replay s' l1) as [s1 ok1]. destruct (replay s1 l2) as [s2 ok2].
    rewrite andb_assoc. reflexivity.
Qed.

Hypothesis Req_refl : forall a, Req a a = true.

Definition ids_of (l : list (nat * O * R)) : list nat := map (fun x => fst (fst x)) l.
Lemma ids_of_app l1 l2 : ids_of (l1 ++ l2) = ids_of l1 ++ ids_of l2.
Proof. unfold ids_of. apply map_app. Qed.

Definition status_ok (l : list (nat * O * R)) (c : nat) (st : tstatus) : Prop :=
  match st with Idle => True | Pending id _ => id < c | Committed id o r => In (id, o, r) l end.

Lemma status_ok_mono l l' c c' st : incl l l' -> c <= c' -> status_ok l c st -> status_ok l' c' st.
Proof. intros Hl Hc. destruct st; cbn [status_ok]; [auto|lia|apply Hl]. Qed.

Definition minv (s0 : S) (m : mon) : Prop :=
  (* (a) the ghost state is the sequential execution of the committed operations, and that execution
         computes exactly the recorded results *)
  replay s0 (lin m) = (ghost m, true) /\
  (* (b) every operation that has returned is committed; a committed, not yet returned operation is in
         the order; a pending one was invoked in the past *)
  (forall id, In id (returned m) -> In id (ids_of (lin m))) /\
  (forall t, status_ok (lin m) (clock m) (status m t)) /\
  (* (c) real time: whatever had returned when an operation was invoked is committed, and comes
         earlier in the commit order than that operation *)
  (forall id rs a, In (id, rs) (before m) -> In a rs -> In a (ids_of (lin m))) /\
  (forall id rs a l1 l2, In (id, rs) (before m) -> In a rs -> ids_of (lin m) = l1 ++ id :: l2 -> In a l1) /\
  (* (d) ids are invocation instants in the past *)
  (forall id, In id (ids_of (lin m)) -> id < clock m).

Lemma minv_init s0 : minv s0 (minit s0).
Proof. unfold minv, minit. cbn. repeat split; intros; contradiction. Qed.

Lemma snoc_decomp {A} (l1 l2 old : list A) (x y : A) : l1 ++ y :: l2 = old ++ [x] ->
  (exists l2', l2 = l2' ++ [x] /\ old = l1 ++ y :: l2') \/ (l2 = [] /\ y = x /\ l1 = old).
Proof.
  intros H. destruct l2 as [|z l2'].
  - right. apply app_inj_tail in H as [H1 H2]. auto.
  - left. destruct (@exists_last _ (z :: l2') ltac:(discriminate)) as (f2 & l & E2). rewrite E2 in H.
    assert (H' : (l1 ++ y :: f2) ++ [l] = old ++ [x]) by (rewrite <- app_assoc; exact H).
    apply app_inj_tail in H' as [H1 H2]. subst l. exists f2. split; [exact E2|symmetry; exact H1].
Qed.

Lemma mstep_inv s0 m e m' : minv s0 m -> mstep m e = Some m' -> minv s0 m'.
Proof.
  intros (Ha & Hb & Hs & Hg & Hf & Hc) E. unfold mstep in E.
  (* the other threads: the order only grows and the clock advances *)
  assert (Hs' : forall l', incl (lin m) l' -> forall u, status_ok l' (Datatypes.S (clock m)) (status m u)).
  { intros l' H u. apply (status_ok_mono (lin m) l' (clock m)); [exact H|lia|apply Hs]. }
  destruct e as [t o|t|t r]; pose proof (Hs t) as Ht.
  - destruct (status m t); try discriminate. injection E as <-. unfold minv. cbn [ghost status lin returned before clock].
    split; [exact Ha|]. split; [exact Hb|]. split.
    { apply (upd_forall (fun _ => status_ok (lin m) (Datatypes.S (clock m)))); [intros u _; apply Hs', incl_refl|cbn; lia]. }
    split.
    { intros id rs a [Hin|Hin] Ha'; [inversion Hin; subst; auto|eauto]. }
    split.
    { intros id rs a l1 l2 [Hin|Hin] Ha' El; [|eauto]. inversion Hin; subst. exfalso.
      assert (Hid : In (clock m) (ids_of (lin m))) by (rewrite El; apply in_or_app; right; left; reflexivity).
      specialize (Hc _ Hid). lia. }
    intros id Hin. specialize (Hc id Hin). lia.
  - destruct (status m t) as [|id o|]; try discriminate. destruct (spec (ghost m) o) as [s' r] eqn:Esp.
    injection E as <-. unfold minv. cbn [ghost status lin returned before clock]. split.
    { rewrite replay_app, Ha. cbn [replay]. rewrite Esp, Req_refl. reflexivity. }
    split.
    { intros id0 Hin. rewrite ids_of_app. apply in_or_app. left. auto. }
    split.
    { apply (upd_forall (fun _ => status_ok (lin m ++ [(id, o, r)]) (Datatypes.S (clock m)))).
      - intros u _. apply Hs', incl_appl, incl_refl.
      - apply in_or_app. right. left. reflexivity. }
    split.
    { intros id0 rs a Hin Ha'. rewrite ids_of_app. apply in_or_app. left. eauto. }
    split.
    { intros id0 rs a l1 l2 Hin Ha' El. rewrite ids_of_app in El. cbn [ids_of map fst] in El.
      symmetry in El. apply snoc_decomp in El as [(l2' & _ & Eold)|(_ & _ & El1)]; [eauto|]. subst l1. eauto. }
    intros id0 Hin. rewrite ids_of_app in Hin. cbn [status_ok] in Ht.
    apply in_app_or in Hin as [Hin|[<-|[]]]; [specialize (Hc _ Hin)|cbn]; lia.
  - destruct (status m t) as [| |id o r']; try discriminate. destruct (Req r r'); [|discriminate].
    injection E as <-. unfold minv. cbn [ghost status lin returned before clock].
    split; [exact Ha|]. split.
    { intros id0 Hin. apply in_app_or in Hin as [Hin|[<-|[]]]; [auto|]. exact (in_map (fun x => fst (fst x)) _ _ Ht). }
    split.
    { apply (upd_forall (fun _ => status_ok (lin m) (Datatypes.S (clock m)))); [intros u _; apply Hs', incl_refl|exact I]. }
    split; [exact Hg|]. split; [exact Hf|].
    intros id0 Hin. specialize (Hc _ Hin). lia.
Qed.

Theorem mrun_inv s0 : forall es m m', minv s0 m -> mrun m es = Some m' -> minv s0 m'.
Proof. apply (orun_inv_all mstep (minv s0)). intros m e m' H E. exact (mstep_inv s0 m e m' H E). Qed.

(* Linearizability: for every execution the monitor accepts — i.e. every operation returns the result
   computed at its commit point — the commit order [lin] is a sequential execution of the specification
   (from the initial state, reproducing every result), contains every operation that has returned, and
   orders an operation after every operation that had returned before it was invoked. *)
Theorem commit_order_linearizes s0 es m : mrun (minit s0) es = Some m ->
  replay s0 (lin m) = (ghost m, true) /\
  (forall id, In id (returned m) -> In id (ids_of (lin m))) /\
  (forall id rs a l1 l2, In (id, rs) (before m) -> In a rs -> ids_of (lin m) = l1 ++ id :: l2 -> In a l1).
Proof.
  intros E. destruct (mrun_inv s0 es _ _ (minv_init s0) E) as (Ha & Hb & _ & _ & Hf & _). auto.
Qed.
End Lin.

(* A transition system whose steps the monitor can follow.  [view s e] are the monitor events of step
   [e] taken from [s], [proj s es] those of a whole run; [Rel] relates states to monitor states (and
   may carry an invariant of the system). *)
Section Sim.
Variables (S O R : Type) (spec : S -> O -> S * R) (Req : R -> R -> bool).
Variables (St Ev : Type) (step : St -> Ev -> option St).
Variable view : St -> Ev -> list (iev O R).
Variable proj : St -> list Ev -> list (iev O R).
Variable Rel : St -> mon S O R -> Prop.
Hypothesis proj_nil : forall s, proj s [] = [].
Hypothesis proj_cons : forall s e es s', step s e = Some s' -> proj s (e :: es) = view s e ++ proj s' es.
Hypothesis step_sim : forall s m e s', Rel s m -> step s e = Some s' ->
  exists m', mrun S O R spec Req m (view s e) = Some m' /\ Rel s' m'.

Lemma run_sim : forall es s m s', Rel s m -> orun step s es = Some s' ->
  exists m', mrun S O R spec Req m (proj s es) = Some m' /\ Rel s' m'.
Proof.
  induction es as [|e es IH]; intros s m s' HR E; cbn [orun] in E.
  - injection E as <-. exists m. rewrite proj_nil. split; [reflexivity|exact HR].
  - destruct (step s e) as [s1|] eqn:E1; [|discriminate]. destruct (step_sim s m e s1 HR E1) as (m1 & Hm1 & HR1).
    destruct (IH s1 m1 s' HR1 E) as (m' & Hm' & HR'). exists m'. split; [|exact HR'].
    rewrite (proj_cons s e es s1 E1), mrun_app, Hm1. exact Hm'.
Qed.

Theorem sim_linearizes : (forall a, Req a a = true) -> forall s0 g0 es s, Rel s0 (minit S O R g0) -> orun step s0 es = Some s ->
  exists m, mrun S O R spec Req (minit S O R g0) (proj s0 es) = Some m /\ Rel s m /\
    replay S O R spec Req g0 (lin S O R m) = (ghost S O R m, true) /\
    (forall id, In id (returned S O R m) -> In id (ids_of O R (lin S O R m))) /\
    (forall id rs a l1 l2, In (id, rs) (before S O R m) -> In a rs -> ids_of O R (lin S O R m) = l1 ++ id :: l2 -> In a l1).
Proof.
  intros Hr s0 g0 es s HR E. destruct (run_sim es s0 _ s HR E) as (m & Hm & HR').
  exists m. split; [exact Hm|]. split; [exact HR'|]. exact (commit_order_linearizes S O R spec Req Hr g0 _ m Hm).
Qed.
End Sim.
