(* Conc/MergeSafe.v — safety and value-correctness of gets against a merge pass, for every schedule;
   refutation of the variant in which the reader drops its guard before reading. *)
From Coq Require Import List Arith Lia Bool.
Import ListNotations.
From BC Require Import Base.Run Conc.MergeLTS.

Lemma existsb_In f sel : existsb (Nat.eqb f) sel = true <-> In f sel.
Proof.
  rewrite existsb_exists. split; [intros (x & Hx & E); apply Nat.eqb_eq in E; subst; exact Hx|intros H; exists f; split; [exact H|apply Nat.eqb_refl]].
Qed.

Lemma upd_same {A} (f : nat -> A) t x : upd f t x t = x.
Proof. unfold upd. rewrite Nat.eqb_refl. reflexivity. Qed.
Lemma upd_other {A} (f : nat -> A) t u x : u <> t -> upd f t x u = f u.
Proof. intros H. unfold upd. apply Nat.eqb_neq in H. rewrite H. reflexivity. Qed.

Section Safe.
Variable T : nat.
Notation step := (mstep T true).
Notation run := (mrun T true).

Definition valid_loc (s : mst) (loc : fid * nat) : Prop := exists recs, files s (fst loc) = Some recs /\ snd loc < length recs.

(* kept by every step of a [run_ok] run: the index points at records that exist; a reader between lookup and read
   holds the location the index has for its key and the value the map has, a reader that is done has
   returned that value, none has failed; while the merge copies, its output exists, is not selected,
   and every key that resolves into a selected file is still on the work list; while it unlinks, no
   key resolves into a selected file *)
Definition J (s : mst) : Prop :=
  (forall k loc, idx s k = Some loc -> valid_loc s loc) /\
  (forall t k loc c, readers s t = RLooked k loc c -> t < T /\ loc = idx s k /\ c = gmap s k) /\
  (forall t k v c, readers s t = RDone k v c -> v = c /\ c = gmap s k) /\
  (forall t, readers s t <> RFailed) /\
  match mph s with
  | MCopying todo sel mid => files s mid <> None /\ ~ In mid sel /\ (forall k f p, idx s k = Some (f, p) -> In f sel -> In k todo)
  | MUnlinking sel => forall k f p, idx s k = Some (f, p) -> ~ In f sel
  | _ => True
  end.

(* runs in which every merge starts with a work list that covers the selected files *)
Fixpoint run_ok (s : mst) (es : list mev) : Prop :=
  match es with
  | [] => True
  | e :: es' => (match e with MStart sel todo _ => covers s sel todo | _ => True end) /\
                match step s e with Some s' => run_ok s' es' | None => True end
  end.

Definition reader_ok (ix : key -> option (fid * nat)) (g : key -> option val) (t : nat) (p : rpc) : Prop :=
  match p with
  | RIdle => True
  | RLooked k loc c => t < T /\ loc = ix k /\ c = g k
  | RDone k v c => v = c /\ c = g k
  | RFailed => False
  end.

Definition phase_ok (fl : fid -> option (list mrec)) (ix : key -> option (fid * nat)) (ph : mphase) : Prop :=
  match ph with
  | MCopying todo sel mid => fl mid <> None /\ ~ In mid sel /\ (forall k f p, ix k = Some (f, p) -> In f sel -> In k todo)
  | MUnlinking sel => forall k f p, ix k = Some (f, p) -> ~ In f sel
  | _ => True
  end.

Lemma J_iff s : J s <->
  (forall k loc, idx s k = Some loc -> valid_loc s loc) /\ (forall t, reader_ok (idx s) (gmap s) t (readers s t)) /\ phase_ok (files s) (idx s) (mph s).
Proof.
  split.
  - intros (J1 & J2 & J3 & J4 & J5). split; [exact J1|]. split; [|exact J5].
    intros t. destruct (readers s t) eqn:E; cbn [reader_ok]; eauto. exact (J4 t E).
  - intros (J1 & Hr & J5). split; [exact J1|]. split; [|split; [|split; [|exact J5]]].
    + intros t k loc c E. specialize (Hr t). rewrite E in Hr. exact Hr.
    + intros t k v c E. specialize (Hr t). rewrite E in Hr. exact Hr.
    + intros t E. specialize (Hr t). rewrite E in Hr. exact Hr.
Qed.

Lemma J_reader s t p' : J s -> reader_ok (idx s) (gmap s) t p' -> J (mkMS (files s) (idx s) (upd (readers s) t p') (mph s)).
Proof.
  intros HJ Hp. apply J_iff in HJ as (J1 & Hr & J5). apply J_iff. split; [exact J1|]. split; [|exact J5].
  apply upd_forall; [intros u _; apply Hr|exact Hp].
Qed.

Lemma J_phase s ph' : J s -> phase_ok (files s) (idx s) ph' ->
  J (mkMS (files s) (idx s) (readers s) ph') /\ forall k, gmap (mkMS (files s) (idx s) (readers s) ph') k = gmap s k.
Proof.
  intros HJ Hp. split; [|reflexivity]. apply J_iff in HJ as (J1 & Hr & _). apply J_iff. exact (conj J1 (conj Hr Hp)).
Qed.

Lemma valid_loc_ext s s' loc : valid_loc s loc ->
  (forall recs, files s (fst loc) = Some recs -> exists more, files s' (fst loc) = Some (recs ++ more)) ->
  valid_loc s' loc /\ value_at s' loc = value_at s loc.
Proof.
  intros (recs & Hf & Hlt) H. destruct (H recs Hf) as (more & Hf'). split.
  - exists (recs ++ more). split; [exact Hf'|]. rewrite app_length. lia.
  - unfold value_at. rewrite Hf, Hf', nth_error_app1 by exact Hlt. reflexivity.
Qed.

(* files and index change under the readers: every entry still denotes the same value, and the entries
   under a guard are untouched *)
Lemma J_transfer s s' : J s -> readers s' = readers s ->
  (forall k loc, idx s k = Some loc -> exists loc', idx s' k = Some loc' /\ valid_loc s' loc' /\ value_at s' loc' = value_at s loc) ->
  (forall k, idx s k = None -> idx s' k = None) ->
  (forall t k loc c, readers s t = RLooked k loc c -> idx s' k = idx s k) ->
  phase_ok (files s') (idx s') (mph s') ->
  J s' /\ forall k, gmap s' k = gmap s k.
Proof.
  intros HJ Er Hsome Hnone Hguard Hph. apply J_iff in HJ as (J1 & Hr & _).
  assert (Hg : forall k, gmap s' k = gmap s k).
  { intros k. unfold gmap. destruct (idx s k) as [loc|] eqn:Ek.
    - destruct (Hsome k loc Ek) as (loc' & -> & _ & Hv). exact Hv.
    - rewrite (Hnone k Ek). reflexivity. }
  split; [|exact Hg]. apply J_iff. split; [|split; [|exact Hph]].
  - intros k loc' Hk. destruct (idx s k) as [loc|] eqn:Ek; [|rewrite (Hnone k Ek) in Hk; discriminate].
    destruct (Hsome k loc Ek) as (loc'' & Hk' & Hv & _). congruence.
  - intros t. rewrite Er. specialize (Hr t). destruct (readers s t) as [|k loc c|k v c|] eqn:Et; cbn [reader_ok] in *; [exact I| | |exact Hr].
    + rewrite (Hguard t k loc c Et), Hg. exact Hr.
    + rewrite Hg. exact Hr.
Qed.

Lemma guard_free_spec s k : guard_free T true s k = true -> forall t, t < T -> holds_guard k (readers s t) = false.
Proof.
  unfold guard_free. cbn [negb orb]. rewrite forallb_forall. intros H t Ht. specialize (H t (proj2 (in_seq T 0 t) ltac:(lia))).
  apply negb_true_iff in H. exact H.
Qed.

Lemma step_J s e s' : J s -> (match e with MStart sel todo _ => covers s sel todo | _ => True end) -> step s e = Some s' ->
  J s' /\ forall k, gmap s' k = gmap s k.
Proof.
  intros HJ Hcov H. pose proof (proj1 (J_iff s) HJ) as (J1 & Hr & J5). unfold mstep in H. destruct e as [t k|t|t|sel todo mid| | | |].
  - (* lookup *)
    destruct (Nat.ltb_spec t T) as [Ht|]; [|discriminate]. destruct (readers s t); try discriminate. injection H as <-.
    split; [|reflexivity]. apply J_reader; [exact HJ|]. cbn. auto.
  - (* read: the guard has kept the entry, so the location is valid and holds the value of the lookup *)
    specialize (Hr t). destruct (readers s t) as [|k loc c| |]; try discriminate. destruct Hr as (Ht & Hloc & ->).
    destruct loc as [loc|].
    + destruct (J1 k loc (eq_sym Hloc)) as (recs & Hf & _). rewrite Hf in H. injection H as <-. split; [|reflexivity].
      apply J_reader; [exact HJ|]. split; [|reflexivity]. unfold gmap. rewrite <- Hloc. unfold value_at. rewrite Hf. reflexivity.
    + injection H as <-. split; [|reflexivity].
      apply J_reader; [exact HJ|]. split; [|reflexivity]. unfold gmap. rewrite <- Hloc. reflexivity.
  - (* return *)
    destruct (readers s t); try discriminate. injection H as <-.
    split; [|reflexivity]. apply J_reader; [exact HJ|exact I].
  - (* the merge starts: its output file is created *)
    destruct (mph s); try discriminate. destruct (files s mid) eqn:Em; try discriminate.
    destruct (existsb (Nat.eqb mid) sel) eqn:Es; [discriminate|]. injection H as <-.
    apply J_transfer; [exact HJ|reflexivity| |auto|reflexivity|].
    + intros k loc Hk. exists loc. split; [exact Hk|]. apply valid_loc_ext; [exact (J1 k loc Hk)|].
      intros recs Hf. exists []. cbn [files]. rewrite app_nil_r, upd_other; [exact Hf|]. intros E. rewrite E in Hf. congruence.
    + cbn [files idx mph phase_ok]. split; [rewrite upd_same; discriminate|]. split; [rewrite <- existsb_In; congruence|].
      intros k f p Hk Hin. apply (Hcov k f p Hk). apply existsb_In. exact Hin.
  - (* one copy *)
    destruct (mph s) as [|todo sel mid| |]; try discriminate. destruct todo as [|k todo]; [discriminate|].
    destruct J5 as (Hmid & Hnot & Hcover).
    assert (Hskip : (forall f p, idx s k = Some (f, p) -> ~ In f sel) -> phase_ok (files s) (idx s) (MCopying todo sel mid)).
    { intros Hno. split; [exact Hmid|]. split; [exact Hnot|]. intros k' f p Hk' Hin.
      destruct (Hcover k' f p Hk' Hin) as [<-|H']; [exfalso; exact (Hno f p Hk' Hin)|exact H']. }
    destruct (idx s k) as [[f p]|] eqn:Ek.
    2:{ injection H as <-. apply J_phase; [exact HJ|]. apply Hskip. intros; discriminate. }
    destruct (existsb (Nat.eqb f) sel) eqn:Esel.
    2:{ injection H as <-. apply J_phase; [exact HJ|]. apply Hskip. intros f' p' E. inversion E; subst. rewrite <- existsb_In. congruence. }
    destruct (guard_free T true s k) eqn:Eg; [|discriminate].
    destruct (files s f) as [recs|] eqn:Ef; [|discriminate]. destruct (files s mid) as [out|] eqn:Eo; [|discriminate].
    destruct (nth_error recs p) as [r|] eqn:En; [|discriminate]. injection H as <-.
    apply existsb_In in Esel.
    apply J_transfer; [exact HJ|reflexivity| | | |]; cbn [files idx mph].
    + (* the entry of [k] moves to the copy; the others see their file at most appended to *)
      intros k' loc Hk'. destruct (Nat.eq_dec k' k) as [->|Hne].
      * rewrite Ek in Hk'. inversion Hk'; subst loc. exists (mid, length out). rewrite upd_same. split; [reflexivity|]. split.
        -- exists (out ++ [r]). cbn [fst snd files]. rewrite upd_same. split; [reflexivity|rewrite app_length; cbn; lia].
        -- unfold value_at. cbn [fst snd files]. rewrite upd_same, Ef, nth_error_app2, Nat.sub_diag, En by lia. reflexivity.
      * exists loc. rewrite upd_other by exact Hne. split; [exact Hk'|]. apply valid_loc_ext; [exact (J1 k' loc Hk')|].
        intros recs0 Hf0. cbn [files]. destruct (Nat.eq_dec (fst loc) mid) as [E|E].
        -- rewrite E in *. rewrite upd_same. rewrite Eo in Hf0. inversion Hf0; subst. eauto.
        -- rewrite upd_other by exact E. exists []. rewrite app_nil_r. exact Hf0.
    + intros k' Hk'. rewrite upd_other; [exact Hk'|]. intros ->. congruence.
    + intros u k' loc c Hu. apply upd_other. intros ->.
      pose proof (Hr u) as Hu'. rewrite Hu in Hu'. destruct Hu' as (Ht & _).
      pose proof (guard_free_spec s k Eg u Ht) as Hgf. rewrite Hu in Hgf. cbn in Hgf. rewrite Nat.eqb_refl in Hgf. discriminate.
    + split; [rewrite upd_same; discriminate|]. split; [exact Hnot|].
      intros k' f' p' Hk' Hin. destruct (Nat.eq_dec k' k) as [->|Hne].
      * rewrite upd_same in Hk'. inversion Hk'; subst. contradiction.
      * rewrite upd_other in Hk' by exact Hne. destruct (Hcover k' f' p' Hk' Hin) as [E|H']; [congruence|exact H'].
  - (* all entries of the selected files have been re-pointed *)
    destruct (mph s) as [|todo sel mid| |]; try discriminate. destruct todo; [|discriminate]. injection H as <-.
    apply J_phase; [exact HJ|]. exact (proj2 (proj2 J5)).
  - (* unlink of a selected file: no index entry points into it any more *)
    destruct (mph s) as [| |sel|]; try discriminate. destruct sel as [|f sel]; [discriminate|]. injection H as <-.
    apply J_transfer; [exact HJ|reflexivity| |auto|reflexivity|].
    + intros k [g p] Hk. exists (g, p). split; [exact Hk|]. apply valid_loc_ext; [exact (J1 k _ Hk)|].
      intros recs Hf. exists []. cbn [files fst]. rewrite app_nil_r, upd_other; [exact Hf|]. intros ->. exact (J5 k f p Hk (or_introl eq_refl)).
    + intros k g p Hk Hin. apply (J5 k g p Hk). right. exact Hin.
  - destruct (mph s) as [| |sel|]; try discriminate. destruct sel; [|discriminate]. injection H as <-.
    apply J_phase; [exact HJ|exact I].
Qed.

Theorem run_J : forall es s s', J s -> run_ok s es -> run s es = Some s' -> J s' /\ forall k, gmap s' k = gmap s k.
Proof.
  intros es s s' HJ. apply (orun_inv step (fun s e => match e with MStart sel todo _ => covers s sel todo | _ => True end)
                              (fun s' => J s' /\ forall k, gmap s' k = gmap s k)); [|split; [exact HJ|reflexivity]].
  intros s0 e s1 [HJ0 Hg0] Hc E. destruct (step_J s0 e s1 HJ0 Hc E) as [HJ1 Hg1]. split; [exact HJ1|].
  intros k. rewrite Hg1. apply Hg0.
Qed.

(* C04 against a merge pass: for every schedule, no get reads from an unlinked file, every get returns
   the value of the abstract map at its lookup, and the abstract map never changes *)
Theorem merge_vs_gets es s s' : J s -> run_ok s es -> run s es = Some s' ->
  (forall t, readers s' t <> RFailed) /\
  (forall t k v c, readers s' t = RDone k v c -> v = gmap s k) /\
  (forall k, gmap s' k = gmap s k).
Proof.
  intros HJ Hok H. destruct (run_J es s s' HJ Hok H) as [(_ & J2 & J3 & J4 & _) Hg]. split; [exact J4|]. split; [|exact Hg].
  intros t k v c Hd. destruct (J3 t k v c Hd) as [-> ->]. apply Hg.
Qed.
End Safe.

Lemma J_init T s : (forall k loc, idx s k = Some loc -> valid_loc s loc) -> (forall t, readers s t = RIdle) -> mph s = MIdle -> J T s.
Proof.
  intros H1 H2 H3. apply J_iff. rewrite H3. split; [exact H1|]. split; [intros t; rewrite H2|]; exact I.
Qed.

(* the guard is what makes it work: if a reader drops it after the lookup (seeded change C04-A), the
   merge re-points and unlinks under its feet *)
Definition demo_state : mst :=
  mkMS (fun f => if Nat.eqb f 0 then Some [mkMRec 1 7] else None) (fun k => if Nat.eqb k 1 then Some (0, 0) else None) (fun _ => RIdle) MIdle.
Definition demo_schedule : list mev := [RLookup 0 1; MStart [0] [1] 5; MCopy; MCopyEnd; MUnlink; RRead 0].

Example unguarded_reader_fails : exists s, mrun 1 false demo_state demo_schedule = Some s /\ readers s 0 = RFailed.
Proof. eexists. split; [vm_compute; reflexivity|reflexivity]. Qed.

Example guarded_merge_waits : mrun 1 true demo_state [RLookup 0 1; MStart [0] [1] 5; MCopy] = None /\
  exists s, mrun 1 true demo_state [RLookup 0 1; MStart [0] [1] 5; RRead 0; MCopy; MCopyEnd; MUnlink; MEnd; RReturn 0; RLookup 0 1; RRead 0] = Some s /\
            readers s 0 = RDone 1 (Some 7) (Some 7) /\ files s 0 = None.
Proof. split; [vm_compute; reflexivity|]. eexists. split; [vm_compute; reflexivity|]. split; reflexivity. Qed.
