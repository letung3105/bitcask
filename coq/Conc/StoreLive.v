(* Conc/StoreLive.v — readers are conserved and the model never deadlocks (repaired remap rule). *)
From Coq Require Import List Arith Lia Bool.
Import ListNotations.
From BC Require Import Base.Run Conc.StoreLTS Conc.StoreSafe.

Definition holding (p : pc) : nat :=
  match p with PGHave _ _ | PGLooked _ _ _ _ | PGRemapped _ _ _ _ | PGRead _ _ => 1 | _ => 0 end.

Fixpoint hsum (f : nat -> pc) (ts : list nat) : nat :=
  match ts with [] => 0 | t :: ts' => holding (f t) + hsum f ts' end.

Lemma hsum_upd_notin f t p ts : ~ In t ts -> hsum (upd f t p) ts = hsum f ts.
Proof.
  induction ts as [|u ts IH]; intros H; cbn [hsum]; [reflexivity|].
  rewrite IH by (intros H'; apply H; right; exact H').
  rewrite upd_other; [reflexivity|]. intros ->. apply H. left. reflexivity.
Qed.

Lemma hsum_upd_in f t p ts : NoDup ts -> In t ts -> hsum (upd f t p) ts + holding (f t) = hsum f ts + holding p.
Proof.
  induction ts as [|u ts IH]; intros Hn Hin; [destruct Hin|]. inversion Hn as [|? ? Hnot Hn']; subst. cbn [hsum].
  destruct (Nat.eq_dec u t) as [->|Hne].
  - rewrite upd_same, hsum_upd_notin by exact Hnot. lia.
  - destruct Hin as [->|Hin]; [contradiction|]. rewrite (upd_other f t u p) by exact Hne. specialize (IH Hn' Hin). lia.
Qed.

Lemma hsum_pos f ts : 0 < hsum f ts -> exists u, In u ts /\ holding (f u) = 1.
Proof.
  induction ts as [|u ts IH]; cbn [hsum]; intros H; [lia|].
  destruct (holding (f u)) as [|[|n]] eqn:E.
  - destruct (IH H) as (w & Hw & Hh). exists w. split; [right; exact Hw|exact Hh].
  - exists u. split; [left; reflexivity|exact E].
  - exfalso. destruct (f u); cbn in E; discriminate.
Qed.

Lemma hsum_zero f ts : (forall t, In t ts -> holding (f t) = 0) -> hsum f ts = 0.
Proof.
  induction ts as [|u ts IH]; intros H; cbn [hsum]; [reflexivity|].
  rewrite (H u (or_introl eq_refl)). apply IH. intros t Ht. apply H. right. exact Ht.
Qed.

(* the operation a writer thread carries: it writes a record, and records have a header *)
Definition wop (p : pc) : option opn :=
  match p with PWWait o | PWLocked o | PWWriting o | PWWritten o _ => Some o | _ => None end.
Definition wop_ok (o : opn) : Prop := 0 < rlen (rec_of o) /\ forall k, o <> OpGet k.

Section Live.
Variable cap : nat.
Variable ts : list nat.
Hypothesis ts_nodup : NoDup ts.

Notation step := (lstep rule_fixed).
Notation run := (lrun rule_fixed).

(* each of the partial record, the mutex and the pool is read by one clause only *)
Definition live_of (pa : option (rec * nat)) (wl : option nat) (po : list nat) (th : nat -> pc) : Prop :=
  length po + hsum th ts = cap /\
  (forall r m, pa = Some (r, m) -> m <= rlen r /\ exists t o, th t = PWWriting o) /\
  (forall t, wl = Some t -> holds_lock (th t) = true) /\
  (forall t o, wop (th t) = Some o -> wop_ok o).

Definition live (s : lst) : Prop := live_of (partial s) (wlock s) (pool s) (thr s).

Lemma live_thr {pa wl po th po' t p p'} : live_of pa wl po th -> In t ts -> th t = p ->
  length po' + holding p' = length po + holding p ->
  (forall o, p <> PWWriting o) \/ pa = None ->
  holds_lock p' = holds_lock p \/ wl = None ->
  (forall o, wop p' = Some o -> wop p = Some o \/ wop_ok o) ->
  live_of pa wl po' (upd th t p').
Proof.
  intros (L2 & L3 & L4 & L5) Hin Et Hpool Hw Hl Hop. subst p. refine (conj _ (conj _ (conj _ _))).
  - pose proof (hsum_upd_in th t p' ts ts_nodup Hin). lia.
  - intros r m H. destruct Hw as [Hw| ->]; [|discriminate]. destruct (L3 r m H) as (Hle & w & o & Ew).
    split; [exact Hle|]. exists w, o. rewrite upd_other; [exact Ew|]. intros ->. exact (Hw o Ew).
  - intros u H. destruct Hl as [Hl| ->]; [|discriminate]. revert u H.
    apply (upd_forall (fun u q => wl = Some u -> holds_lock q = true)); [intros u _; apply L4|].
    intros H. rewrite Hl. exact (L4 t H).
  - apply (upd_forall (fun _ q => forall o, wop q = Some o -> wop_ok o)); [intros u _; apply L5|].
    intros o H. destruct (Hop o H) as [H'|H']; [exact (L5 t o H')|exact H'].
Qed.

Lemma live_pa pa wl po th pa' : live_of pa wl po th ->
  (forall r m, pa' = Some (r, m) -> m <= rlen r /\ exists t o, th t = PWWriting o) -> live_of pa' wl po th.
Proof. intros (L2 & _ & L4 & L5) L3. exact (conj L2 (conj L3 (conj L4 L5))). Qed.

Lemma live_wl pa wl po th wl' : live_of pa wl po th ->
  (forall t, wl' = Some t -> holds_lock (th t) = true) -> live_of pa wl' po th.
Proof. intros (L2 & L3 & _ & L5) L4. exact (conj L2 (conj L3 (conj L4 L5))). Qed.

Lemma wf_op_pos o : wf_op o = true -> (forall k, o <> OpGet k) -> 0 < rlen (rec_of o).
Proof. destruct o; cbn; intros H Hn; try (apply Nat.ltb_lt; exact H). exfalso. eapply Hn. reflexivity. Qed.

Lemma step_live s e s' : safe s -> live s -> In (ev_thread e) ts -> step s e = Some s' -> live s'.
Proof.
  intros HS HL Hin E. unfold live in *.
  destruct e as [t o|t|t|t n|t|t|t|t|t|t|t|t|t]; cbn [ev_thread] in Hin; unfold lstep, set_thr in E.
  - (* invoke *)
    destruct (thr s t) eqn:Et; try discriminate. destruct (wf_op o) eqn:Ewf; [|discriminate]. injection E as <-.
    apply (live_thr HL Hin Et); [|left; discriminate|left|].
    + destruct o; reflexivity.
    + destruct o; reflexivity.
    + intros o0 H. right. destruct o; inversion H; subst; (split; [apply wf_op_pos; [exact Ewf|]|]; intros; discriminate).
  - (* lock: the thread moves while the mutex is free, then takes it *)
    destruct (thr s t) eqn:Et; try discriminate. destruct (wlock s) eqn:Ew; try discriminate. injection E as <-. cbn [partial wlock pool thr].
    apply (live_wl _ None).
    + apply (live_thr HL Hin Et); [reflexivity|left; discriminate|right; reflexivity|auto].
    + intros u H. inversion H; subst. rewrite upd_same. reflexivity.
  - (* begin *)
    destruct (thr s t) eqn:Et; try discriminate. destruct (partial s) eqn:Ep; try discriminate.
    destruct (Nat.ltb 0 (rlen (rec_of o))); [|discriminate]. injection E as <-. cbn [partial wlock pool thr].
    apply (live_pa None).
    + apply (live_thr HL Hin Et); [reflexivity|left; discriminate|left; reflexivity|auto].
    + intros r m H. inversion H; subst. split; [lia|]. exists t, o. apply upd_same.
  - (* grow *)
    destruct (thr s t) eqn:Et; try discriminate. destruct (partial s) as [[r m]|] eqn:Ep; try discriminate.
    destruct (Nat.leb (m + n) (rlen r)) eqn:El; [|discriminate]. injection E as <-. cbn [partial wlock pool thr].
    apply (live_pa (Some (r, m))); [exact HL|].
    intros r0 m0 H. inversion H; subst. split; [apply Nat.leb_le; exact El|]. exists t, o. exact Et.
  - (* finish: the partial record goes, then the thread moves *)
    destruct (thr s t) eqn:Et; try discriminate. destruct (partial s) as [[r m]|] eqn:Ep; try discriminate.
    destruct (Nat.eqb m (rlen r)); [|discriminate]. injection E as <-.
    assert (HL' : live_of None (wlock s) (pool s) (thr s)) by (apply (live_pa (Some (r, m))); [exact HL|discriminate]).
    apply (live_thr HL' Hin Et); [reflexivity|right; reflexivity|left; reflexivity|auto].
  - (* publish *)
    destruct (thr s t) as [| | | |o pos| | | | | | | | |] eqn:Et; try discriminate.
    destruct o as [k v len|k|k len]; try discriminate; injection E as <-;
      (apply (live_thr HL Hin Et); [reflexivity|left; discriminate|left; reflexivity|discriminate]).
  - (* unlock: the mutex is released, then the thread moves *)
    destruct (thr s t) eqn:Et; try discriminate. injection E as <-.
    assert (HL' : live_of (partial s) None (pool s) (thr s)) by (apply (live_wl _ (wlock s)); [exact HL|discriminate]).
    apply (live_thr HL' Hin Et); [reflexivity|left; discriminate|right; reflexivity|discriminate].
  - (* checkout *)
    destruct (thr s t) eqn:Et; try discriminate. destruct (pool s) as [|ml rest] eqn:Epool; try discriminate. injection E as <-.
    apply (live_thr HL Hin Et); [cbn; lia|left; discriminate|left; reflexivity|discriminate].
  - (* lookup *)
    destruct (thr s t) eqn:Et; try discriminate. injection E as <-.
    apply (live_thr HL Hin Et); [reflexivity|left; discriminate|left; reflexivity|discriminate].
  - (* remap *)
    destruct (thr s t) as [| | | | | | | | |k ml loc r| | | |] eqn:Et; try discriminate.
    destruct loc as [[pos len]|]; injection E as <-;
      (apply (live_thr HL Hin Et); [reflexivity|left; discriminate|left; reflexivity|discriminate]).
  - (* slice *)
    pose proof (safe_pc s t HS) as Hp.
    destruct (thr s t) as [| | | | | | | | | |k ml [pos len] r| | |] eqn:Et; try discriminate.
    rewrite (pc_ok_fits _ _ _ _ _ _ _ _ _ Hp) in E. injection E as <-.
    apply (live_thr HL Hin Et); [reflexivity|left; discriminate|left; reflexivity|discriminate].
  - (* checkin *)
    destruct (thr s t) eqn:Et; try discriminate. injection E as <-. cbn [partial wlock pool thr].
    apply (live_thr HL Hin Et); [rewrite app_length; cbn; lia|left; discriminate|left; reflexivity|discriminate].
  - (* return *)
    destruct (thr s t) eqn:Et; try discriminate; injection E as <-;
      (apply (live_thr HL Hin Et); [reflexivity|left; discriminate|left; reflexivity|discriminate]).
Qed.

Lemma init_live : live (linit cap).
Proof.
  unfold live, linit. cbn [thr partial wlock pool]. refine (conj _ (conj _ (conj _ _))); try discriminate.
  rewrite repeat_length, hsum_zero; [lia|reflexivity].
Qed.

Theorem run_live es s s' : safe s -> live s -> Forall (fun e => In (ev_thread e) ts) es -> run s es = Some s' -> safe s' /\ live s'.
Proof.
  intros HS HL HF. apply (orun_inv_Forall step (fun e => In (ev_thread e) ts) (fun s => safe s /\ live s)); [|exact (conj HS HL)|exact HF].
  intros s0 e s1 [HS0 HL0] Hin E. split; [exact (step_safe _ _ _ HS0 E)|exact (step_live _ _ _ HS0 HL0 Hin E)].
Qed.

Lemma lock_holder_steps s u : safe s -> live s -> holds_lock (thr s u) = true -> exists e s', step s e = Some s'.
Proof.
  intros HS (L2 & L3 & L4 & L5) H. pose proof (safe_pc s u HS) as [Hu Hlu]. specialize (Hlu H).
  destruct (thr s u) eqn:Eu; try discriminate.
  - (* locked: begin *)
    destruct (L5 u o) as [Hlen Hng]; [rewrite Eu; reflexivity|].
    destruct (partial s) as [[r m]|] eqn:Ep.
    + (* a partial record would belong to another holder of the mutex *)
      exfalso. destruct (L3 r m eq_refl) as (_ & w & o' & Hw).
      pose proof (safe_pc s w HS) as [_ Hlw]. rewrite Hw in Hlw. specialize (Hlw eq_refl). congruence.
    + exists (EBegin u). unfold lstep. rewrite Eu, Ep. apply Nat.ltb_lt in Hlen. rewrite Hlen. eauto.
  - (* writing: more bytes can always appear *)
    destruct Hu as (m & Hpm). destruct (L3 _ _ Hpm) as (Hle & _).
    exists (EGrow u 0). unfold lstep. rewrite Eu, Hpm. replace (Nat.leb (m + 0) (rlen (rec_of o))) with true by (symmetry; apply Nat.leb_le; lia). eauto.
  - (* written: publish *)
    destruct (L5 u o) as [Hlen Hng]; [rewrite Eu; reflexivity|].
    exists (EPublish u). unfold lstep. rewrite Eu. destruct o; eauto. exfalso. eapply Hng. reflexivity.
  - exists (EUnlock u). unfold lstep. rewrite Eu. eauto.
Qed.

Lemma reader_holder_steps s u : holding (thr s u) = 1 -> exists e s', step s e = Some s'.
Proof.
  intros H. destruct (thr s u) eqn:Eu; try discriminate.
  - exists (ELookup u). unfold lstep. rewrite Eu. eauto.
  - exists (ERemap u). unfold lstep. rewrite Eu. destruct loc as [[? ?]|]; eauto.
  - exists (ESlice u). unfold lstep. rewrite Eu. destruct loc. destruct (Nat.leb _ _); eauto.
  - exists (ECheckin u). unfold lstep. rewrite Eu. eauto.
Qed.

(* a thread that holds the mutex or a reader can move itself; one that waits for the mutex or for a
   reader finds a holder that can; the others return *)
Theorem enabled_somewhere s t : 0 < cap -> safe s -> live s -> thr s t <> PIdle -> exists e s', step s e = Some s'.
Proof.
  intros Hcap HS HL Hne. pose proof HL as (L2 & L3 & L4 & L5).
  destruct (holds_lock (thr s t)) eqn:Hl; [exact (lock_holder_steps s t HS HL Hl)|].
  destruct (Nat.eq_dec (holding (thr s t)) 1) as [Hh|Hh]; [exact (reader_holder_steps s t Hh)|].
  pose proof (safe_pc s t HS) as [Hp _].
  destruct (thr s t) eqn:Et; cbn in Hl, Hh; try congruence.
  - destruct (wlock s) as [u|] eqn:Ew.
    + apply (lock_holder_steps s u HS HL). apply L4. reflexivity.
    + exists (ELock t). unfold lstep. rewrite Et, Ew. eauto.
  - exists (EReturn t). unfold lstep. rewrite Et. eauto.
  - destruct (pool s) as [|ml rest] eqn:Epool.
    + cbn [length] in L2. assert (Hpos : 0 < hsum (thr s) ts) by lia.
      destruct (hsum_pos _ _ Hpos) as (u & _ & Hu). exact (reader_holder_steps s u Hu).
    + exists (ECheckout t). unfold lstep. rewrite Et, Epool. eauto.
  - exists (EReturn t). unfold lstep. rewrite Et. eauto.
  - contradiction.
Qed.
End Live.

Theorem pool_conserved cap ts es s :
  NoDup ts -> Forall (fun e => In (ev_thread e) ts) es -> lrun rule_fixed (linit cap) es = Some s ->
  length (pool s) + hsum (thr s) ts = cap.
Proof. intros Hn HF E. apply (run_live cap ts Hn es _ s (init_safe cap) (init_live cap ts) HF E). Qed.

Theorem no_deadlock cap ts es s t :
  0 < cap -> NoDup ts -> Forall (fun e => In (ev_thread e) ts) es -> lrun rule_fixed (linit cap) es = Some s ->
  thr s t <> PIdle -> exists e s', lstep rule_fixed s e = Some s'.
Proof.
  intros Hc Hn HF E Hne. destruct (run_live cap ts Hn es _ s (init_safe cap) (init_live cap ts) HF E) as (HS & HL).
  exact (enabled_somewhere cap ts s t Hc HS HL Hne).
Qed.

(* once every thread is idle the pool is full again *)
Corollary quiescent_pool_full cap ts es s :
  NoDup ts -> Forall (fun e => In (ev_thread e) ts) es -> lrun rule_fixed (linit cap) es = Some s ->
  (forall t, thr s t = PIdle) -> length (pool s) = cap.
Proof.
  intros Hn HF E Hq. pose proof (pool_conserved cap ts es s Hn HF E) as H.
  rewrite hsum_zero in H; [lia|]. intros t _. rewrite Hq. reflexivity.
Qed.
