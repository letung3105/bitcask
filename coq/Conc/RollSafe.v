(* Conc/RollSafe.v — every schedule of Conc/RollLTS.v is safe: no reader finds a file missing or a record
   outside its mapping, and every get returns the value the abstract map held at its lookup. *)
From Coq Require Import List Arith Lia Bool.
Import ListNotations.
From BC Require Import Base.Run Conc.RollLTS.

Definition has (fl : fid -> option (list rrec)) (f p : nat) (v : option val) : Prop :=
  exists recs, fl f = Some recs /\ p < length recs /\ v = match nth_error recs p with Some r => rv r | None => None end.
Definition covered (fl : fid -> option (list rrec)) (f n : nat) : Prop :=
  exists recs, fl f = Some recs /\ n <= length recs.
Definition ext (fl fl' : fid -> option (list rrec)) : Prop :=
  forall f recs, fl f = Some recs -> exists more, fl' f = Some (recs ++ more).

Lemma ext_refl fl : ext fl fl.
Proof. intros f recs H. exists []. now rewrite app_nil_r. Qed.

Lemma has_ext fl fl' f p v : ext fl fl' -> has fl f p v -> has fl' f p v.
Proof.
  intros He (recs & Hf & Hp & Hv). destruct (He _ _ Hf) as (more & Hf').
  exists (recs ++ more). split; [exact Hf'|]. split; [rewrite app_length; lia|].
  now rewrite nth_error_app1.
Qed.

Lemma covered_ext fl fl' f n : ext fl fl' -> covered fl f n -> covered fl' f n.
Proof.
  intros He (recs & Hf & Hn). destruct (He _ _ Hf) as (more & Hf').
  exists (recs ++ more). split; [exact Hf'|]. rewrite app_length; lia.
Qed.

Lemma upd_same {A} (f : nat -> A) t x : upd f t x t = x.
Proof. unfold upd. now rewrite Nat.eqb_refl. Qed.
Lemma upd_other {A} (f : nat -> A) t u x : u <> t -> upd f t x u = f u.
Proof. intros H. unfold upd. destruct (Nat.eqb_spec u t); congruence. Qed.

Lemma ext_append fl a recs r : fl a = Some recs -> ext fl (upd fl a (Some (recs ++ [r]))).
Proof.
  intros Ha f rs Hf. destruct (Nat.eq_dec f a) as [->|Hne].
  - rewrite upd_same. rewrite Ha in Hf. injection Hf as <-. now exists [r].
  - rewrite upd_other by exact Hne. exists []. now rewrite app_nil_r.
Qed.

Lemma has_append fl a recs r : has (upd fl a (Some (recs ++ [r]))) a (length recs) (rv r).
Proof.
  exists (recs ++ [r]). rewrite upd_same, app_length, nth_error_app2, Nat.sub_diag by lia.
  split; [reflexivity|]. split; [cbn; lia|reflexivity].
Qed.

Lemma ext_create fl a : fl a = None -> ext fl (upd fl a (Some [])).
Proof.
  intros Ha f rs Hf. destruct (Nat.eq_dec f a) as [->|Hne]; [congruence|].
  rewrite upd_other by exact Hne. exists []. now rewrite app_nil_r.
Qed.

Definition reader_ok (fl : fid -> option (list rrec)) (g : gpc) : Prop :=
  match g with
  | GIdle => True
  | GLooked _ (Some (f, p)) c => has fl f p c
  | GLooked _ None c => c = None
  | GDone _ v c => v = c
  | GFailed => False
  end.

Lemma reader_ok_ext fl fl' g : ext fl fl' -> reader_ok fl g -> reader_ok fl' g.
Proof. intros He. destruct g as [|k [[f p]|] c| |]; cbn [reader_ok]; auto. apply has_ext. exact He. Qed.

Record RI (s : rst) : Prop := mkRI {
  ri_idx : forall k f p, ridx s k = Some (f, p) -> exists v, has (rfiles s) f p (Some v);      (* index entries point at put records *)
  ri_wr : forall k f p, wstate s = WAppended k (f, p) -> exists v, has (rfiles s) f p (Some v);
  ri_reader : forall t, reader_ok (rfiles s) (rreaders s t);
  ri_maps : forall t f n, rmaps s t f = Some n -> covered (rfiles s) f n;
  ri_active : rfiles s (ractive s) <> None;
  ri_above : forall f, ractive s < f -> rfiles s f = None
}.

Lemma ri_reader_at s t g : RI s -> rreaders s t = g -> reader_ok (rfiles s) g.
Proof. intros HRI <-. apply (ri_reader s HRI). Qed.

Lemma RI_ext s fl' a' w' : RI s -> ext (rfiles s) fl' ->
  (forall k f p, w' = WAppended k (f, p) -> exists v, has fl' f p (Some v)) ->
  fl' a' <> None -> (forall f, a' < f -> fl' f = None) ->
  RI (mkRS fl' a' (ridx s) w' (rreaders s) (rmaps s)).
Proof.
  intros HRI He Hw Ha Hab. constructor; cbn [rfiles ractive ridx wstate rreaders rmaps]; [|exact Hw| | |exact Ha|exact Hab].
  - intros k f p Hi. destruct (ri_idx _ HRI _ _ _ Hi) as (v & Hh). exists v. exact (has_ext _ _ _ _ _ He Hh).
  - intros t. exact (reader_ok_ext _ _ _ He (ri_reader _ HRI t)).
  - intros t f n Hm. exact (covered_ext _ _ _ _ He (ri_maps _ HRI _ _ _ Hm)).
Qed.

(* the writer changes the index or its own state, and is not left with an appended record *)
Lemma RI_writer s ix' w' : RI s -> (forall k f p, ix' k = Some (f, p) -> exists v, has (rfiles s) f p (Some v)) ->
  (forall k loc, w' <> WAppended k loc) -> RI (mkRS (rfiles s) (ractive s) ix' w' (rreaders s) (rmaps s)).
Proof.
  intros HRI Hi Hw. constructor; cbn [rfiles ractive ridx wstate rreaders rmaps]; [exact Hi| |apply HRI|apply HRI|apply HRI|apply HRI].
  intros k f p E. destruct (Hw _ _ E).
Qed.

Lemma RI_reader s t g' mp' : RI s -> reader_ok (rfiles s) g' -> (forall u f n, mp' u f = Some n -> covered (rfiles s) f n) ->
  RI (mkRS (rfiles s) (ractive s) (ridx s) (wstate s) (upd (rreaders s) t g') mp').
Proof.
  intros HRI Hg Hm. constructor; cbn [rfiles ractive ridx wstate rreaders rmaps]; [apply HRI|apply HRI| |exact Hm|apply HRI|apply HRI].
  apply (upd_forall (fun _ => reader_ok (rfiles s))); [intros u _; apply HRI|exact Hg].
Qed.

Lemma ri_init : RI rinit.
Proof.
  constructor; cbn; try discriminate; try congruence; [intros t; exact I|].
  intros f Hf. destruct (Nat.eqb_spec f 0); [lia|reflexivity].
Qed.

Lemma rvalue_has s (f : fid) p v : has (rfiles s) f p v -> rvalue_at s (f, p) = v.
Proof. intros (recs & Hf & _ & ->). unfold rvalue_at; cbn. now rewrite Hf. Qed.

(* with the renewal rule a read finds its record inside the mapping it uses, new, renewed or kept, and
   yields the value committed at the lookup *)
Lemma read_inv s t s' : RI s -> rstep true s (GRead t) = Some s' ->
  exists k loc c mp', rreaders s t = GLooked k loc c /\
    s' = mkRS (rfiles s) (ractive s) (ridx s) (wstate s) (upd (rreaders s) t (GDone k c c)) mp' /\
    forall u f n, mp' u f = Some n -> covered (rfiles s) f n.
Proof.
  intros HRI H. cbn [rstep] in H. destruct (rreaders s t) as [|k loc c| |] eqn:Er; try discriminate.
  pose proof (ri_reader_at s t _ HRI Er) as Hr. exists k, loc, c. destruct loc as [[f p]|]; cbn [reader_ok] in Hr.
  - destruct Hr as (recs & Hf & Hp & Hc). rewrite Hf, <- Hc in H.
    set (n := match rmaps s t f with None => length recs | Some n0 => if true && (n0 <=? p) then length recs else n0 end) in H.
    assert (Hn : p < n /\ n <= length recs).
    { subst n. destruct (rmaps s t f) as [n0|] eqn:Hm; [|lia].
      destruct (ri_maps _ HRI _ _ _ Hm) as (recs' & Hf' & Hle). rewrite Hf in Hf'. injection Hf' as <-.
      cbn [andb]. destruct (Nat.leb_spec n0 p); lia. }
    destruct Hn as [Hpn Hn]. apply Nat.ltb_lt in Hpn. rewrite Hpn in H. injection H as <-.
    eexists. split; [reflexivity|]. split; [reflexivity|].
    intros u. apply (upd_forall (fun _ m => forall f0 n0, m f0 = Some n0 -> covered (rfiles s) f0 n0)); [intros u0 _; apply HRI|].
    apply (upd_forall (fun f0 x => forall n0, x = Some n0 -> covered (rfiles s) f0 n0)); [intros f0 _; apply HRI|].
    intros n0 E. injection E as <-. exists recs. split; [exact Hf|exact Hn].
  - subst c. injection H as <-. eexists. split; [reflexivity|]. split; [reflexivity|apply HRI].
Qed.

Theorem step_RI s e s' : RI s -> rstep true s e = Some s' -> RI s'.
Proof.
  intros HRI H. destruct e as [k v|k| | | |t k|t|t]; cbn [rstep] in H.
  - (* append *)
    destruct (wstate s); try discriminate. destruct (rfiles s (ractive s)) as [recs|] eqn:Ha; [|discriminate]. injection H as <-.
    apply RI_ext; [exact HRI|exact (ext_append _ _ _ _ Ha)| |rewrite upd_same; discriminate|].
    + intros k0 f p Heq. injection Heq as <- <- <-. exists v. exact (has_append _ _ _ (mkRRec k (Some v))).
    + intros f Hf. rewrite upd_other by lia. exact (ri_above _ HRI f Hf).
  - (* append a tombstone *)
    destruct (wstate s); try discriminate. destruct (rfiles s (ractive s)) as [recs|] eqn:Ha; [|discriminate]. injection H as <-.
    apply RI_ext; [exact HRI|exact (ext_append _ _ _ _ Ha)|discriminate|rewrite upd_same; discriminate|].
    intros f Hf. rewrite upd_other by lia. exact (ri_above _ HRI f Hf).
  - (* roll: the appended record stays where it is *)
    destruct (wstate s) eqn:Hw; try discriminate; (destruct (rfiles s (S (ractive s))) eqn:Hn; [discriminate|]); injection H as <-;
      (apply RI_ext; [exact HRI|exact (ext_create _ _ Hn)| |rewrite upd_same; discriminate|]).
    + intros k0 f p Heq. rewrite Heq in Hw. destruct (ri_wr _ HRI _ _ _ Hw) as (v0 & Hh). exists v0. exact (has_ext _ _ _ _ _ (ext_create _ _ Hn) Hh).
    + intros f Hf. rewrite upd_other by lia. apply (ri_above _ HRI). lia.
    + discriminate.
    + intros f Hf. rewrite upd_other by lia. apply (ri_above _ HRI). lia.
  - (* publish *)
    destruct (wstate s) as [|k [f0 p0]|k|d] eqn:Hw; try discriminate; injection H as <-; (apply RI_writer; [exact HRI| |discriminate]).
    + apply (upd_forall (fun _ x => forall f p, x = Some (f, p) -> exists v, has (rfiles s) f p (Some v))); [intros u _; apply HRI|].
      intros f p E. injection E as <- <-. exact (ri_wr _ HRI _ _ _ Hw).
    + apply (upd_forall (fun _ x => forall f p, x = Some (f, p) -> exists v, has (rfiles s) f p (Some v))); [intros u _; apply HRI|discriminate].
  - (* writer returns *)
    destruct (wstate s); try discriminate. injection H as <-. apply RI_writer; [exact HRI|apply HRI|discriminate].
  - (* lookup: the index entry holds the abstract value *)
    destruct (rreaders s t); try discriminate. injection H as <-. apply RI_reader; [exact HRI| |apply HRI].
    unfold rgmap. destruct (ridx s k) as [[f p]|] eqn:Hi; cbn [reader_ok]; [|reflexivity].
    destruct (ri_idx _ HRI _ _ _ Hi) as (v0 & Hh). rewrite (rvalue_has _ _ _ _ Hh). exact Hh.
  - (* read *)
    destruct (read_inv s t s' HRI H) as (k & loc & c & mp' & _ & -> & Hm). apply RI_reader; [exact HRI|reflexivity|exact Hm].
  - (* reader returns *)
    destruct (rreaders s t); try discriminate. injection H as <-. apply RI_reader; [exact HRI|exact I|apply HRI].
Qed.

Lemma run_RI es : forall s s', RI s -> rrun true s es = Some s' -> RI s'.
Proof. exact (orun_inv_all (rstep true) RI step_RI es). Qed.

(* For every schedule from the initial state: no reader has failed, and a finished get holds the value of
   the abstract map at its lookup. *)
Theorem rollover_vs_gets es s :
  rrun true rinit es = Some s ->
  (forall t, rreaders s t <> GFailed) /\
  (forall t k v c, rreaders s t = GDone k v c -> v = c) /\
  (forall k f p, ridx s k = Some (f, p) -> exists v, has (rfiles s) f p (Some v)).
Proof.
  intros H. pose proof (run_RI _ _ _ ri_init H) as HRI.
  split; [|split; [|apply (ri_idx _ HRI)]].
  - intros t E. exact (ri_reader_at s t _ HRI E).
  - intros t k v c E. exact (ri_reader_at s t _ HRI E).
Qed.

(* the writer can always make its next step (no step of a put depends on a reader); in particular the next
   file can always be created *)
Theorem writer_never_blocked es s :
  rrun true rinit es = Some s ->
  match wstate s with
  | WIdle => forall k v, rstep true s (WAppend k v) <> None
  | WAppended _ _ | WAppendedDel _ => rstep true s WRoll <> None /\ rstep true s WPublish <> None
  | WDone _ => rstep true s WReturn <> None
  end.
Proof.
  intros H. pose proof (run_RI _ _ _ ri_init H) as HRI.
  destruct (wstate s) eqn:Hw; cbn [rstep]; rewrite ?Hw.
  - intros k v. destruct (rfiles s (ractive s)) eqn:Ha; [discriminate|]. now destruct (ri_active _ HRI).
  - split; [|discriminate]. rewrite (ri_above _ HRI (S (ractive s))) by lia. discriminate.
  - split; [|discriminate]. rewrite (ri_above _ HRI (S (ractive s))) by lia. discriminate.
  - discriminate.
Qed.

(* Without renewal (a mapping once made is kept): a reader that mapped the file before a put fails on the
   record of that put. *)
Definition stale_schedule : list rev :=
  [WAppend 1 10; WPublish; WReturn; GLookup 0 1; GRead 0; GReturn 0;
   WAppend 2 20; WPublish; WReturn; GLookup 0 2; GRead 0].

Theorem no_renewal_fails :
  exists s, rrun false rinit stale_schedule = Some s /\ rreaders s 0 = GFailed.
Proof. eexists. split; [vm_compute; reflexivity|reflexivity]. Qed.

(* the same schedule, with a rollover in the middle, under the rule of the code *)
Definition roll_schedule : list rev :=
  [WAppend 1 10; WPublish; WReturn; GLookup 0 1; GRead 0; GReturn 0;
   WAppend 2 20; WRoll; GLookup 1 2; WPublish; GLookup 0 2; WReturn; GRead 0; GRead 1; WAppend 1 11; WPublish; GReturn 0; GLookup 0 1; GRead 0].

Example roll_schedule_runs :
  exists s, rrun true rinit roll_schedule = Some s /\ rreaders s 0 = GDone 1 (Some 11) (Some 11) /\ rreaders s 1 = GDone 2 None None /\ ractive s = 1.
Proof. eexists. split; [vm_compute; reflexivity|]. repeat split. Qed.
