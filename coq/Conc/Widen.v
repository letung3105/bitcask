(* Conc/Widen.v — widening the interval of an operation keeps a history accepted by the commit-point
   monitor of Conc/Lin.v.  A client of the server sees each command over a wider interval than the
   store operation that executes it (the request travels to the server and waits for a blocking
   thread before the store is invoked; the reply travels back after the store returned).  Moving an
   invocation earlier, or a return later, past events of OTHER threads never turns an accepted
   history into a rejected one: the commit points stay inside the wider intervals. *)
From Coq Require Import List Arith Lia Bool.
Import ListNotations.
From BC Require Import Conc.Lin.

Section Widen.
Variables (S O R : Type).
Variable spec : S -> O -> S * R.
Variable Req : R -> R -> bool.

Notation mon := (mon S O R).
Notation mstep := (mstep S O R spec Req).
Notation mrun := (mrun S O R spec Req).
Notation iev := (iev O R).

(* what acceptance depends on: the ghost state and, per thread, whether it is idle, has an operation
   pending, or has committed one with a result — not the ids, the clock or the real-time bookkeeping *)
Definition kind_eq (a b : tstatus O R) : Prop :=
  match a, b with
  | Idle _ _, Idle _ _ => True
  | Pending _ _ _ o, Pending _ _ _ o' => o = o'
  | Committed _ _ _ o r, Committed _ _ _ o' r' => o = o' /\ r = r'
  | _, _ => False
  end.

Definition sim (m m' : mon) : Prop := ghost _ _ _ m = ghost _ _ _ m' /\ forall t, kind_eq (status _ _ _ m t) (status _ _ _ m' t).

Lemma kind_eq_refl x : kind_eq x x.
Proof. destruct x; cbn; auto. Qed.

Lemma sim_refl m : sim m m.
Proof. split; [reflexivity|]. intros t. apply kind_eq_refl. Qed.

Definition ev_thread (e : iev) : nat := match e with IInv _ _ t _ | ICommit _ _ t | IRet _ _ t _ => t end.

Definition is_commit (e : iev) : bool := match e with ICommit _ _ _ => true | _ => false end.

Lemma step_local (a b : mon) e : mstep a e = Some b ->
  (forall u, u <> ev_thread e -> status _ _ _ b u = status _ _ _ a u) /\ (is_commit e = false -> ghost _ _ _ b = ghost _ _ _ a).
Proof.
  intros H. unfold Lin.mstep in H. destruct e as [t o|t|t r]; cbn [ev_thread is_commit].
  - destruct (status _ _ _ a t); try discriminate. injection H as <-. cbn [status ghost]. split; [intros u Hu; apply set_status_other; exact Hu|reflexivity].
  - destruct (status _ _ _ a t); try discriminate. destruct (spec (ghost _ _ _ a) o). injection H as <-. cbn [status ghost]. split; [intros u Hu; apply set_status_other; exact Hu|discriminate].
  - destruct (status _ _ _ a t); try discriminate. destruct (Req r r0); [|discriminate]. injection H as <-. cbn [status ghost]. split; [intros u Hu; apply set_status_other; exact Hu|reflexivity].
Qed.

Lemma step_determined (a a' : mon) e b :
  (is_commit e = true -> ghost _ _ _ a = ghost _ _ _ a') -> kind_eq (status _ _ _ a (ev_thread e)) (status _ _ _ a' (ev_thread e)) ->
  mstep a e = Some b ->
  exists b', mstep a' e = Some b' /\ kind_eq (status _ _ _ b (ev_thread e)) (status _ _ _ b' (ev_thread e)) /\
             (ghost _ _ _ a = ghost _ _ _ a' -> ghost _ _ _ b = ghost _ _ _ b').
Proof.
  intros Hg Hk H. unfold Lin.mstep in *. destruct e as [t o|t|t r]; cbn [ev_thread is_commit] in *.
  - destruct (status _ _ _ a t); try discriminate. destruct (status _ _ _ a' t); cbn in Hk; try contradiction. injection H as <-. eexists. split; [reflexivity|].
    cbn [ghost status]. rewrite !set_status_same. split; [cbn; reflexivity|auto].
  - destruct (status _ _ _ a t) as [|id o|]; try discriminate. destruct (status _ _ _ a' t) as [|id' o'|]; cbn in Hk; try contradiction. subst o'.
    rewrite <- (Hg eq_refl). destruct (spec (ghost _ _ _ a) o) as [s' r]. injection H as <-. eexists. split; [reflexivity|]. cbn [ghost status]. rewrite !set_status_same. split; [cbn; auto|reflexivity].
  - destruct (status _ _ _ a t) as [| |id o r']; try discriminate. destruct (status _ _ _ a' t) as [| |id' o' r'']; cbn in Hk; try contradiction. destruct Hk as [-> ->].
    destruct (Req r r''); [|discriminate]. injection H as <-. eexists. split; [reflexivity|]. cbn [ghost status]. rewrite !set_status_same. split; [cbn; exact I|auto].
Qed.

Lemma sim_step m m' e m1 : sim m m' -> mstep m e = Some m1 -> exists m1', mrun m' [e] = Some m1' /\ sim m1 m1'.
Proof.
  intros [Hg Hs] E. destruct (step_determined m m' e m1 (fun _ => Hg) (Hs _) E) as (m1' & E' & Hk & Hg').
  exists m1'. cbn [Lin.mrun]. rewrite E'. split; [reflexivity|]. split; [exact (Hg' Hg)|].
  destruct (step_local m m1 e E) as [L _]. destruct (step_local m' m1' e E') as [L' _].
  intros u. destruct (Nat.eq_dec u (ev_thread e)) as [->|Hu]; [exact Hk|]. rewrite (L u Hu), (L' u Hu). apply Hs.
Qed.

Lemma sim_run es m m' m1 : sim m m' -> mrun m es = Some m1 -> exists m1', mrun m' es = Some m1' /\ sim m1 m1'.
Proof.
  exact (run_sim S O R spec Req mon iev mstep (fun _ e => [e]) (fun _ es => es) sim
           (fun _ => eq_refl) (fun _ _ _ _ _ => eq_refl) sim_step es m m' m1).
Qed.

Lemma commute m e1 e2 m2 : ev_thread e1 <> ev_thread e2 -> is_commit e1 = false \/ is_commit e2 = false ->
  mrun m [e1; e2] = Some m2 -> exists m2', mrun m [e2; e1] = Some m2' /\ sim m2 m2'.
Proof.
  intros Hne Hnc H. cbn [Lin.mrun] in H. destruct (mstep m e1) as [m1|] eqn:E1; [|discriminate]. destruct (mstep m1 e2) as [m2x|] eqn:E2; [|discriminate]. inversion H; subst m2x; clear H.
  destruct (step_local m m1 e1 E1) as [L1 G1]. destruct (step_local m1 m2 e2 E2) as [L2 G2].
  assert (Hne' : ev_thread e2 <> ev_thread e1) by (intros E; apply Hne; symmetry; exact E).
  (* e2 is enabled in m: e1 has not touched its thread, nor, if e2 is a commit, the ghost state *)
  destruct (step_determined m1 m e2 m2) as (n1 & En1 & Hk2 & Hg2);
    [intros C2; apply G1; destruct Hnc; congruence|rewrite (L1 _ Hne'); apply kind_eq_refl|exact E2|].
  destruct (step_local m n1 e2 En1) as [L2' G2'].
  destruct (step_determined m n1 e1 m1) as (n2 & En2 & Hk1 & Hg1);
    [intros C1; symmetry; apply G2'; destruct Hnc; congruence|rewrite (L2' _ Hne); apply kind_eq_refl|exact E1|].
  destruct (step_local n1 n2 e1 En2) as [L1' G1'].
  exists n2. cbn [Lin.mrun]. rewrite En1, En2. split; [reflexivity|]. split.
  - destruct (is_commit e1) eqn:C1.
    + assert (C2 : is_commit e2 = false) by (destruct Hnc; congruence). rewrite (G2 C2). apply Hg1. symmetry. exact (G2' C2).
    + rewrite (G1' eq_refl). apply Hg2. exact (G1 eq_refl).
  - intros u. destruct (Nat.eq_dec u (ev_thread e1)) as [->|Hu1].
    + rewrite (L2 _ Hne). exact Hk1.
    + destruct (Nat.eq_dec u (ev_thread e2)) as [->|Hu2].
      * rewrite (L1' _ Hne'). exact Hk2.
      * rewrite (L2 u Hu2), (L1 u Hu1), (L1' u Hu1), (L2' u Hu2). apply kind_eq_refl.
Qed.

Definition accepted (m : mon) (es : list iev) : Prop := exists m', mrun m es = Some m'.

Theorem swap_accepted m pre e1 e2 post : ev_thread e1 <> ev_thread e2 -> is_commit e1 = false \/ is_commit e2 = false ->
  accepted m (pre ++ e1 :: e2 :: post) -> accepted m (pre ++ e2 :: e1 :: post).
Proof.
  intros Hne Hnc (mf & H). rewrite mrun_app in H. destruct (mrun m pre) as [m1|] eqn:Ep; [|discriminate].
  change (e1 :: e2 :: post) with ([e1; e2] ++ post) in H. rewrite mrun_app in H. destruct (mrun m1 [e1; e2]) as [m2|] eqn:E12; [|discriminate].
  destruct (commute m1 e1 e2 m2 Hne Hnc E12) as (m2' & E21 & Hs). destruct (sim_run post m2 m2' mf Hs H) as (mf' & Hf & _).
  exists mf'. rewrite mrun_app, Ep. change (e2 :: e1 :: post) with ([e2; e1] ++ post). rewrite mrun_app, E21. exact Hf.
Qed.

(* C11: the invocation of an operation may be moved earlier past any events of other threads, and its
   return later: the history stays accepted, hence (commit_order_linearizes) linearizable *)
Theorem invocation_earlier m pre mid t o post : Forall (fun e => ev_thread e <> t) mid ->
  accepted m (pre ++ mid ++ IInv _ _ t o :: post) -> accepted m (pre ++ IInv _ _ t o :: mid ++ post).
Proof.
  revert pre post. induction mid as [|e mid IH] using rev_ind; intros pre post Hf H; [exact H|].
  apply Forall_app in Hf as [Hf1 Hf2]. inversion Hf2 as [|? ? He _]; subst.
  rewrite <- app_assoc in H. cbn [app] in H.
  assert (H' : accepted m (pre ++ mid ++ IInv _ _ t o :: e :: post)).
  { rewrite app_assoc in H |- *. apply swap_accepted; [cbn; exact He|right; reflexivity|exact H]. }
  replace (pre ++ IInv O R t o :: (mid ++ [e]) ++ post) with (pre ++ IInv O R t o :: mid ++ e :: post) by (rewrite <- app_assoc; reflexivity).
  apply (IH pre (e :: post) Hf1). exact H'.
Qed.

Theorem return_later m pre t r mid post : Forall (fun e => ev_thread e <> t) mid ->
  accepted m (pre ++ IRet _ _ t r :: mid ++ post) -> accepted m (pre ++ mid ++ IRet _ _ t r :: post).
Proof.
  revert pre. induction mid as [|e mid IH]; intros pre Hf H; [exact H|].
  inversion Hf as [|? ? He Hf']; subst. cbn [app] in *.
  assert (H' : accepted m (pre ++ e :: IRet _ _ t r :: mid ++ post)).
  { apply swap_accepted; [cbn; intros E; apply He; symmetry; exact E|left; reflexivity|exact H]. }
  replace (pre ++ e :: mid ++ IRet O R t r :: post) with ((pre ++ [e]) ++ mid ++ IRet O R t r :: post) by (rewrite <- app_assoc; reflexivity).
  apply IH; [exact Hf'|]. rewrite <- app_assoc. exact H'.
Qed.
End Widen.
