(* Conc/RollLin.v — every schedule of the rollover model (Conc/RollLTS.v) is linearizable: its history of
   invocations and returns is accepted by the commit-point monitor of Conc/Lin.v (puts commit at the
   publication of the index entry, gets at the index lookup), so the commit order is a sequential execution of
   the map that reproduces every result and respects real time.  A get is invoked at its lookup here;
   Conc/Widen.v moves invocations earlier and returns later without losing acceptance. *)
From Coq Require Import List Arith Lia Bool.
Import ListNotations.
From BC Require Import Base.Run Conc.Lin Conc.RollLTS Conc.RollSafe.

Inductive ropn := RPut (k : key) (v : val) | RGet (k : key) | RDel (k : key).
Inductive rres := RRUnit | RRVal (v : option val) | RRBool (b : bool).
Definition gst := key -> option val.

Definition rspec (g : gst) (o : ropn) : gst * rres :=
  match o with
  | RPut k v => (upd g k (Some v), RRUnit)
  | RGet k => (g, RRVal (g k))
  | RDel k => (upd g k None, RRBool (match g k with Some _ => true | None => false end))
  end.
Definition ov_eqb (a b : option val) : bool :=
  match a, b with Some x, Some y => Nat.eqb x y | None, None => true | _, _ => false end.
Definition rres_eqb (a b : rres) : bool :=
  match a, b with RRUnit, RRUnit => true | RRVal x, RRVal y => ov_eqb x y | RRBool x, RRBool y => Bool.eqb x y | _, _ => false end.
Lemma rres_eqb_refl a : rres_eqb a a = true.
Proof. destruct a as [|[x|]|b]; cbn; auto using Nat.eqb_refl, Bool.eqb_reflx. Qed.

Notation mon := (mon gst ropn rres).
Notation mstep := (mstep gst ropn rres rspec rres_eqb).
Notation mrun := (mrun gst ropn rres rspec rres_eqb).
Notation minit := (minit gst ropn rres).

(* the writer is thread 0, reader t is thread t+1 *)
Definition project1 (s : rst) (e : rev) : list (iev ropn rres) :=
  match e with
  | WAppend k v => [IInv _ _ 0 (RPut k v)]
  | WAppendDel k => [IInv _ _ 0 (RDel k)]
  | WRoll => []
  | WPublish => [ICommit _ _ 0]
  | WReturn => match wstate s with
               | WDone None => [IRet _ _ 0 RRUnit]
               | WDone (Some b) => [IRet _ _ 0 (RRBool b)]
               | _ => []
               end
  | GLookup t k => [IInv _ _ (S t) (RGet k); ICommit _ _ (S t)]
  | GRead _ => []
  | GReturn t => match rreaders s t with GDone _ v _ => [IRet _ _ (S t) (RRVal v)] | _ => [] end
  end.
Fixpoint project (s : rst) (es : list rev) : list (iev ropn rres) :=
  match es with
  | [] => []
  | e :: es' => project1 s e ++ match rstep true s e with Some s' => project s' es' | None => [] end
  end.

(* the status of thread 0 for a writer state: the record a put has appended holds its value *)
Definition wr_status (fl : fid -> option (list rrec)) (w : wpc) (st : tstatus ropn rres) : Prop :=
  match w with
  | WIdle => st = Idle _ _
  | WAppended k loc => exists id v, st = Pending _ _ id (RPut k v) /\ has fl (fst loc) (snd loc) (Some v)
  | WAppendedDel k => exists id, st = Pending _ _ id (RDel k)
  | WDone d => exists id o, st = Committed _ _ id o (match d with None => RRUnit | Some b => RRBool b end)
  end.

Definition rd_status (g : gpc) (st : tstatus ropn rres) : Prop :=
  match g with
  | GIdle => st = Idle _ _
  | GLooked k _ c => exists id, st = Committed _ _ id (RGet k) (RRVal c)
  | GDone k v _ => exists id, st = Committed _ _ id (RGet k) (RRVal v)
  | GFailed => False
  end.

Definition sim (s : rst) (m : mon) : Prop :=
  (forall k, ghost _ _ _ m k = rgmap s k) /\
  wr_status (rfiles s) (wstate s) (status _ _ _ m 0) /\
  forall t, rd_status (rreaders s t) (status _ _ _ m (S t)).

Lemma wr_status_ext fl fl' w st : ext fl fl' -> wr_status fl w st -> wr_status fl' w st.
Proof.
  intros He. destruct w; cbn [wr_status]; auto. intros (id & v & Hst & Hh). exists id, v. split; [exact Hst|exact (has_ext _ _ _ _ _ He Hh)].
Qed.

Lemma rgmap_ext s fl' a' w' rd' mp' : RI s -> ext (rfiles s) fl' -> forall k, rgmap (mkRS fl' a' (ridx s) w' rd' mp') k = rgmap s k.
Proof.
  intros I He k. unfold rgmap. cbn [ridx]. destruct (ridx s k) as [[f p]|] eqn:E; [|reflexivity].
  destruct (ri_idx _ I _ _ _ E) as (v & Hh). rewrite (rvalue_has s f p _ Hh). apply rvalue_has. exact (has_ext _ _ _ _ _ He Hh).
Qed.

Lemma rgmap_some s k : RI s -> match rgmap s k with Some _ => true | None => false end = match ridx s k with Some _ => true | None => false end.
Proof.
  intros I. unfold rgmap. destruct (ridx s k) as [[f p]|] eqn:E; [|reflexivity].
  destruct (ri_idx _ I _ _ _ E) as (v & Hh). rewrite (rvalue_has s f p _ Hh). reflexivity.
Qed.

Theorem step_sim s e s' m : RI s -> sim s m -> rstep true s e = Some s' ->
  exists m', mrun m (project1 s e) = Some m' /\ sim s' m'.
Proof.
  intros I (Hg & Hw & Hrd) Hs. destruct e as [k v|k| | | |t k|t|t]; cbn [project1]; cbn [rstep] in Hs.
  - (* append: the put is invoked *)
    destruct (wstate s); try discriminate. destruct (rfiles s (ractive s)) as [recs|] eqn:Ea; [|discriminate]. injection Hs as <-.
    cbn [Lin.mrun Lin.mstep]. rewrite Hw. eexists. split; [reflexivity|].
    pose proof (ext_append _ _ _ (mkRRec k (Some v)) Ea) as He.
    split; [intros k0; rewrite (rgmap_ext s _ _ _ _ _ I He); apply Hg|]. split; [|exact Hrd].
    exists (clock _ _ _ m), v. split; [reflexivity|exact (has_append _ _ _ (mkRRec k (Some v)))].
  - (* append a tombstone: the delete is invoked *)
    destruct (wstate s); try discriminate. destruct (rfiles s (ractive s)) as [recs|] eqn:Ea; [|discriminate]. injection Hs as <-.
    cbn [Lin.mrun Lin.mstep]. rewrite Hw. eexists. split; [reflexivity|].
    pose proof (ext_append _ _ _ (mkRRec k None) Ea) as He.
    split; [intros k0; rewrite (rgmap_ext s _ _ _ _ _ I He); apply Hg|]. split; [|exact Hrd]. exists (clock _ _ _ m). reflexivity.
  - (* roll *)
    exists m. split; [reflexivity|].
    destruct (wstate s); try discriminate; (destruct (rfiles s (S (ractive s))) eqn:En; [discriminate|]); injection Hs as <-;
      pose proof (ext_create _ _ En) as He;
      (split; [intros k0; rewrite (rgmap_ext s _ _ _ _ _ I He); apply Hg|]); (split; [exact (wr_status_ext _ _ _ _ He Hw)|exact Hrd]).
  - (* publish: the put or the delete commits *)
    destruct (wstate s) as [|k [f p]|k|d]; try discriminate; injection Hs as <-.
    + destruct Hw as (id & v & Hst & Hv). cbn [Lin.mrun Lin.mstep]. rewrite Hst. cbn [rspec]. eexists. split; [reflexivity|].
      split; [|split; [exists id, (RPut k v); reflexivity|exact Hrd]].
      intros k0. cbn [ghost]. unfold rgmap. cbn [ridx]. unfold upd at 1 2. destruct (Nat.eqb k0 k); [|apply Hg].
      symmetry. exact (rvalue_has s f p _ Hv).
    + destruct Hw as (id & Hst). cbn [Lin.mrun Lin.mstep]. rewrite Hst. cbn [rspec]. eexists. split; [reflexivity|].
      split; [|split; [exists id, (RDel k); rewrite Hg, (rgmap_some s k I); reflexivity|exact Hrd]].
      intros k0. cbn [ghost]. unfold rgmap. cbn [ridx]. unfold upd at 1 2. destruct (Nat.eqb k0 k); [reflexivity|apply Hg].
  - (* the put or the delete returns *)
    destruct (wstate s) as [| | |d]; try discriminate. injection Hs as <-. destruct Hw as (id & o & Hst).
    destruct d as [b|]; cbn [Lin.mrun Lin.mstep]; rewrite Hst, rres_eqb_refl; (eexists; split; [reflexivity|]);
      (split; [exact Hg|]; split; [reflexivity|exact Hrd]).
  - (* lookup: the get is invoked and commits *)
    pose proof (Hrd t) as Ht. destruct (rreaders s t); try discriminate. injection Hs as <-.
    cbn [Lin.mrun Lin.mstep]. rewrite Ht. cbn [status]. rewrite set_status_same. cbn [rspec ghost]. eexists. split; [reflexivity|].
    split; [exact Hg|]. split; [exact Hw|].
    intros t0. cbn [rreaders status]. unfold upd, set_status. cbn [Nat.eqb]. destruct (Nat.eqb t0 t); [rewrite Hg; eexists; reflexivity|exact (Hrd t0)].
  - (* read: no event; the value read is the committed one *)
    exists m. split; [reflexivity|]. destruct (read_inv s t s' I Hs) as (k & loc & c & mp' & Er & -> & _).
    pose proof (Hrd t) as Ht. rewrite Er in Ht.
    split; [exact Hg|]. split; [exact Hw|]. apply (upd_forall (fun u g => rd_status g (status _ _ _ m (S u)))); [intros u _; apply Hrd|exact Ht].
  - (* the get returns *)
    pose proof (Hrd t) as Ht. destruct (rreaders s t) as [| |k v c|]; try discriminate. injection Hs as <-. destruct Ht as (id & Ht).
    cbn [Lin.mrun Lin.mstep]. rewrite Ht, rres_eqb_refl. eexists. split; [reflexivity|].
    split; [exact Hg|]. split; [exact Hw|].
    intros t0. cbn [rreaders status]. unfold upd, set_status. cbn [Nat.eqb]. destruct (Nat.eqb t0 t); [reflexivity|exact (Hrd t0)].
Qed.

Lemma sim_init : sim rinit (minit (fun _ => None)).
Proof. split; [reflexivity|]. split; [reflexivity|]. intros t. reflexivity. Qed.

(* Every schedule of puts, deletes (with replacement of the active file between append and publication) and gets is
   linearizable: the monitor accepts its history; the commit order replays, from the empty map, to a map that
   agrees with what the index denotes, reproducing every result; it contains every returned operation and
   respects real time. *)
Theorem roll_schedules_linearizable es s :
  rrun true rinit es = Some s ->
  exists m, mrun (minit (fun _ => None)) (project rinit es) = Some m /\
    (forall k, ghost _ _ _ m k = rgmap s k) /\
    replay _ _ _ rspec rres_eqb (fun _ => None) (lin _ _ _ m) = (ghost _ _ _ m, true) /\
    (forall id, In id (returned _ _ _ m) -> In id (ids_of _ _ (lin _ _ _ m))) /\
    (forall id rs a l1 l2, In (id, rs) (before _ _ _ m) -> In a rs -> ids_of _ _ (lin _ _ _ m) = l1 ++ id :: l2 -> In a l1).
Proof.
  intros E.
  destruct (sim_linearizes gst ropn rres rspec rres_eqb rst rev (rstep true) project1 project (fun s m => RI s /\ sim s m))
    with (s0 := rinit) (g0 := fun _ : key => @None val) (es := es) (s := s) as (m & Hm & [_ (Hg & _)] & H).
  - reflexivity.
  - intros s0 e es0 s1 H. cbn [project]. rewrite H. reflexivity.
  - intros s0 m e s1 [I HR] H. destruct (step_sim s0 e s1 m I HR H) as (m' & Hm' & HR').
    exists m'. split; [exact Hm'|]. split; [exact (step_RI _ _ _ I H)|exact HR'].
  - exact rres_eqb_refl.
  - split; [exact ri_init|exact sim_init].
  - exact E.
  - exists m. auto.
Qed.
