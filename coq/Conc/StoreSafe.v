(* Conc/StoreSafe.v — safety of the interleaving model with the repaired remap rule: no reachable
   state has a panicked thread, whatever the schedule and however a record's bytes trickle into the
   file; and the pinned rule is refuted by an explicit schedule. *)
From Coq Require Import List Arith Lia Bool.
Import ListNotations.
From BC Require Import Base.Run Conc.StoreLTS.

Lemma size_app a b : size (a ++ b) = size a + size b.
Proof. induction a as [|r a IH]; cbn [app size]; lia. Qed.

Lemma rec_at_app : forall l l' pos r, rec_at l pos = Some r -> rec_at (l ++ l') pos = Some r.
Proof.
  induction l as [|x l IH]; intros l' pos r H; cbn [rec_at app] in *; [discriminate|].
  destruct (Nat.eqb pos 0); [exact H|]. destruct (Nat.ltb pos (rlen x)); [discriminate|]. apply IH. exact H.
Qed.

Lemma rec_at_end : forall l r, (forall x, In x l -> 0 < rlen x) -> rec_at (l ++ [r]) (size l) = Some r.
Proof.
  induction l as [|x l IH]; intros r Hl; cbn [app size rec_at]; [reflexivity|].
  assert (Hx : 0 < rlen x) by (apply Hl; left; reflexivity).
  replace (Nat.eqb (rlen x + size l) 0) with false by (symmetry; apply Nat.eqb_neq; lia).
  replace (Nat.ltb (rlen x + size l) (rlen x)) with false by (symmetry; apply Nat.ltb_ge; lia).
  replace (rlen x + size l - rlen x) with (size l) by lia. apply IH. intros y Hy. apply Hl. right. exact Hy.
Qed.

Lemma rec_at_bound : forall l pos r, rec_at l pos = Some r -> pos + rlen r <= size l.
Proof.
  induction l as [|x l IH]; intros pos r H; cbn [rec_at size] in *; [discriminate|].
  destruct (Nat.eqb pos 0) eqn:E0; [apply Nat.eqb_eq in E0; inversion H; subst; lia|].
  destruct (Nat.ltb pos (rlen x)) eqn:E1; [discriminate|]. apply Nat.ltb_ge in E1. specialize (IH _ _ H). lia.
Qed.

Lemma upd_same {A} (f : nat -> A) t x : upd f t x t = x.
Proof. unfold upd. rewrite Nat.eqb_refl. reflexivity. Qed.
Lemma upd_other {A} (f : nat -> A) t u x : u <> t -> upd f t x u = f u.
Proof. intros H. unfold upd. apply Nat.eqb_neq in H. rewrite H. reflexivity. Qed.

Section Safe.
Notation step := (lstep rule_fixed).
Notation run := (lrun rule_fixed).

Definition good_loc (d : list rec) (k : key) (loc : nat * nat) : Prop :=
  exists rc, rec_at d (fst loc) = Some rc /\ rlen rc = snd loc /\ rk rc = k.

Definition holds_lock (p : pc) : bool :=
  match p with PWLocked _ | PWWriting _ | PWWritten _ _ | PWPublished _ => true | _ => false end.

(* what the pc of thread [t] promises about the file, the partial record and the mutex; the last
   clause is the mutual exclusion of writers *)
Definition pc_ok (d : list rec) (pa : option (rec * nat)) (wl : option nat) (t : nat) (p : pc) : Prop :=
  match p with
  | PGLooked k ml (Some loc) r => good_loc d k loc
  | PGRemapped k ml loc r => good_loc d k loc /\ fst loc + snd loc <= ml
  | PWWriting o => exists m, pa = Some (rec_of o, m)
  | PWWritten o pos => rec_at d pos = Some (rec_of o)
  | PPanicked => False
  | _ => True
  end /\
  (holds_lock p = true -> wl = Some t).

(* the invariant reads neither the pool nor the abstract map *)
Definition safe_of (d : list rec) (pa : option (rec * nat)) (ix : key -> option (nat * nat)) (wl : option nat) (th : nat -> pc) : Prop :=
  (forall x, In x d -> 0 < rlen x) /\
  (forall k loc, ix k = Some loc -> good_loc d k loc) /\
  (forall r m, pa = Some (r, m) -> 0 < rlen r) /\
  (forall t, pc_ok d pa wl t (th t)).

Definition safe (s : lst) : Prop := safe_of (data s) (partial s) (index s) (wlock s) (thr s).

Lemma safe_pc s t : safe s -> pc_ok (data s) (partial s) (wlock s) t (thr s t).
Proof. intros H. apply H. Qed.

Lemma good_loc_mono d d' k loc : (forall pos r, rec_at d pos = Some r -> rec_at d' pos = Some r) ->
  good_loc d k loc -> good_loc d' k loc.
Proof. intros H (rc & H1 & H2 & H3). exists rc. auto. Qed.

Lemma pc_ok_mono d pa d' pa' wl t p : (forall pos r, rec_at d pos = Some r -> rec_at d' pos = Some r) ->
  (forall o, p = PWWriting o -> exists m, pa' = Some (rec_of o, m)) ->
  pc_ok d pa wl t p -> pc_ok d' pa' wl t p.
Proof.
  intros H Hw [H1 H2]. split; [|exact H2]. destruct p; auto.
  - destruct loc; [exact (good_loc_mono d d' _ _ H H1)|exact I].
  - split; [exact (good_loc_mono d d' _ _ H (proj1 H1))|exact (proj2 H1)].
Qed.

Lemma safe_thr d pa ix wl th t p' : safe_of d pa ix wl th -> pc_ok d pa wl t p' -> safe_of d pa ix wl (upd th t p').
Proof.
  intros (Hd & Hi & Hp & Ht) H. refine (conj Hd (conj Hi (conj Hp _))).
  apply upd_forall; [intros u _; apply Ht|exact H].
Qed.

Lemma pc_ok_fits d pa wl t k ml pos len r : pc_ok d pa wl t (PGRemapped k ml (pos, len) r) -> Nat.leb (pos + len) ml = true.
Proof. intros [[_ H] _]. apply Nat.leb_le. exact H. Qed.

Lemma step_safe s e s' : safe s -> step s e = Some s' -> safe s'.
Proof.
  intros HS E. unfold safe.
  pose proof HS as (Hd & Hi & Hp & Ht).
  destruct e as [t o|t|t|t n|t|t|t|t|t|t|t|t|t]; unfold lstep, set_thr in E; pose proof (Ht t) as Htt.
  - (* invoke *)
    destruct (thr s t); try discriminate. destruct (wf_op o); [|discriminate]. injection E as <-.
    apply safe_thr; [exact HS|]. destruct o; (split; [exact I|discriminate]).
  - (* lock: nobody held it *)
    destruct (thr s t); try discriminate. destruct (wlock s); try discriminate. injection E as <-. cbn [data partial index wlock thr].
    refine (conj Hd (conj Hi (conj Hp _))). apply upd_forall; [|split; [exact I|reflexivity]].
    intros u _. destruct (Ht u) as [H1 H2]. split; [exact H1|]. intros Hh. discriminate (H2 Hh).
  - (* begin: no thread was writing *)
    destruct (thr s t); try discriminate. destruct (partial s); try discriminate.
    destruct (Nat.ltb 0 (rlen (rec_of o))) eqn:El; [|discriminate]. injection E as <-. cbn [data partial index wlock thr].
    refine (conj Hd (conj Hi (conj _ _))).
    + intros r m H. inversion H; subst. apply Nat.ltb_lt. exact El.
    + apply upd_forall; [|split; [exists 0; reflexivity|apply Htt]].
      intros u _. apply (pc_ok_mono (data s) None); [auto| |apply Ht].
      intros o' Eo. destruct (Ht u) as [Hu _]. rewrite Eo in Hu. destruct Hu as (m & Hm). discriminate.
  - (* grow *)
    destruct (thr s t); try discriminate. destruct (partial s) as [[r m]|]; try discriminate.
    destruct (Nat.leb (m + n) (rlen r)); [|discriminate]. injection E as <-. cbn [data partial index wlock thr].
    refine (conj Hd (conj Hi (conj _ _))).
    + intros r0 m0 H. inversion H; subst. exact (Hp r0 m eq_refl).
    + intros u. apply (pc_ok_mono (data s) (Some (r, m))); [auto| |apply Ht].
      intros o' Eo. destruct (Ht u) as [Hu _]. rewrite Eo in Hu. destruct Hu as (m' & Hm'). inversion Hm'; subst. eauto.
  - (* finish: the record is whole, at the end of the file; the other threads do not hold the mutex, so none is writing *)
    destruct (thr s t); try discriminate. destruct (partial s) as [[r m]|]; try discriminate.
    destruct (Nat.eqb m (rlen r)); [|discriminate]. injection E as <-. cbn [data partial index wlock thr].
    destruct Htt as [(m0 & Hm0) Hlt]. inversion Hm0; subst r m0. specialize (Hlt eq_refl).
    assert (Hmono : forall pos r0, rec_at (data s) pos = Some r0 -> rec_at (data s ++ [rec_of o]) pos = Some r0)
      by (intros; apply rec_at_app; assumption).
    refine (conj _ (conj _ (conj _ _))).
    + intros x Hx. apply in_app_or in Hx as [Hx|[<-|[]]]; [auto|exact (Hp _ _ eq_refl)].
    + intros k loc H. exact (good_loc_mono _ _ k loc Hmono (Hi k loc H)).
    + discriminate.
    + apply upd_forall.
      * intros u Hu. apply (pc_ok_mono (data s) (Some (rec_of o, m))); [exact Hmono| |apply Ht].
        intros o' Eo. exfalso. destruct (Ht u) as [_ Hl]. rewrite Eo in Hl. specialize (Hl eq_refl). congruence.
      * split; [|intros _; exact Hlt]. apply rec_at_end. exact Hd.
  - (* publish *)
    destruct (thr s t) as [| | | |o pos| | | | | | | | |]; try discriminate. destruct Htt as [Hrec Hlt].
    destruct o as [k v len|k|k len]; try discriminate; injection E as <-; cbn [data partial index wlock thr]; refine (conj Hd (conj _ (conj Hp _))).
    + apply (upd_forall (fun k0 x => forall loc, x = Some loc -> good_loc (data s) k0 loc)); [intros u _; apply Hi|].
      intros loc H. inversion H; subst. exists (rec_of (OpPut k v len)). cbn. auto.
    + apply upd_forall; [intros u _; apply Ht|split; [exact I|exact Hlt]].
    + apply (upd_forall (fun k0 x => forall loc, x = Some loc -> good_loc (data s) k0 loc)); [intros u _; apply Hi|discriminate].
    + apply upd_forall; [intros u _; apply Ht|split; [exact I|exact Hlt]].
  - (* unlock: nobody else held it *)
    destruct (thr s t); try discriminate. injection E as <-. cbn [data partial index wlock thr]. destruct Htt as [_ Hlt]. specialize (Hlt eq_refl).
    refine (conj Hd (conj Hi (conj Hp _))). apply upd_forall; [|split; [exact I|discriminate]].
    intros u Hu. destruct (Ht u) as [H1 H2]. split; [exact H1|]. intros Hh. specialize (H2 Hh). congruence.
  - (* checkout *)
    destruct (thr s t); try discriminate. destruct (pool s); try discriminate. injection E as <-.
    apply safe_thr; [exact HS|split; [exact I|discriminate]].
  - (* lookup *)
    destruct (thr s t); try discriminate. injection E as <-.
    apply safe_thr; [exact HS|]. split; [|discriminate]. destruct (index s k) as [loc|] eqn:Ei; [exact (Hi k loc Ei)|exact I].
  - (* remap: with the repaired rule the record fits the mapping afterwards *)
    destruct (thr s t) as [| | | | | | | | |k ml loc r| | | |]; try discriminate.
    destruct loc as [[pos len]|]; injection E as <-; (apply safe_thr; [exact HS|]); (split; [|discriminate]); [|exact I].
    destruct Htt as [Hg _]. split; [exact Hg|]. destruct Hg as (rc & H1 & H2 & _). cbn [fst snd] in *.
    apply rec_at_bound in H1. rewrite H2 in H1. unfold rule_fixed, visible.
    destruct (Nat.ltb_spec ml (pos + len)); [destruct (partial s) as [[? ?]|]; lia|lia].
  - (* slice *)
    destruct (thr s t) as [| | | | | | | | | |k ml [pos len] r| | |]; try discriminate.
    rewrite (pc_ok_fits _ _ _ _ _ _ _ _ _ Htt) in E. injection E as <-.
    apply safe_thr; [exact HS|split; [exact I|discriminate]].
  - (* checkin *)
    destruct (thr s t); try discriminate. injection E as <-.
    apply safe_thr; [exact HS|split; [exact I|discriminate]].
  - (* return *)
    destruct (thr s t); try discriminate; injection E as <-; (apply safe_thr; [exact HS|split; [exact I|discriminate]]).
Qed.

Lemma init_safe cap : safe (linit cap).
Proof.
  unfold safe, linit. cbn [data index thr partial wlock]. refine (conj _ (conj _ (conj _ _))); try discriminate.
  - intros x [].
  - intros t. split; [exact I|discriminate].
Qed.

Theorem run_safe : forall es s s', safe s -> run s es = Some s' -> safe s'.
Proof. exact (orun_inv_all step safe step_safe). Qed.

(* C04: no schedule, and no way of trickling a record's bytes into the file, makes a get panic *)
Theorem no_panic cap es s t : run (linit cap) es = Some s -> thr s t <> PPanicked.
Proof.
  intros E H. pose proof (safe_pc s t (run_safe es _ _ (init_safe cap) E)) as Ht. rewrite H in Ht. apply Ht.
Qed.
End Safe.

(* the pinned rule (map again only when pos >= mapped length) is refuted by the schedule of D3:
   a reader maps the file while the record of another thread is partly written (its first 28 bytes are
   in the file), and later reads that record through the stale mapping *)
Definition d3_schedule : list lev :=
  [EInvoke 0 (OpPut 1 10 30); ELock 0; EBegin 0; EGrow 0 30; EFinish 0; EPublish 0; EUnlock 0; EReturn 0;
   EInvoke 0 (OpPut 2 20 120); ELock 0; EBegin 0; EGrow 0 28;
   EInvoke 1 (OpGet 1); ECheckout 1; ELookup 1; ERemap 1; ESlice 1; ECheckin 1; EReturn 1;
   EGrow 0 92; EFinish 0; EPublish 0; EUnlock 0; EReturn 0;
   EInvoke 1 (OpGet 2); ECheckout 1; ELookup 1; ERemap 1; ESlice 1].

Example pinned_rule_panics :
  exists s, lrun rule_pinned (linit 1) d3_schedule = Some s /\ thr s 1 = PPanicked /\ pool s = [].
Proof. eexists. split; [vm_compute; reflexivity|]. split; reflexivity. Qed.

Example fixed_rule_same_schedule :
  exists s, lrun rule_fixed (linit 1) d3_schedule = Some s /\ thr s 1 = PGRead 150 (Some 20).
Proof. eexists. split; [vm_compute; reflexivity|]. reflexivity. Qed.
