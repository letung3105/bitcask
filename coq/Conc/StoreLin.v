(* Conc/StoreLin.v — every schedule of the interleaving model (repaired remap rule) is linearizable:
   the instrumented history (invoke; commit = KeyDir publish for put/del, KeyDir lookup for get;
   return) is accepted by the commit-point monitor of Conc/Lin.v for the sequential map
   specification, hence by [commit_order_linearizes] the commit order explains every result and
   respects real time. *)
From Coq Require Import List Arith Lia Bool.
Import ListNotations.
From BC Require Import Base.Run Conc.Lin Conc.StoreLTS Conc.StoreSafe.

Definition gstate := key -> option val.
Definition is_some {A} (x : option A) : bool := match x with Some _ => true | None => false end.

Definition mspec (g : gstate) (o : opn) : gstate * result :=
  match o with
  | OpPut k v _ => (upd g k (Some v), RUnit)
  | OpGet k => (g, RVal (g k))
  | OpDel k _ => (upd g k None, RBool (is_some (g k)))
  end.

Definition opt_eqb (a b : option val) : bool :=
  match a, b with Some x, Some y => Nat.eqb x y | None, None => true | _, _ => false end.
Definition res_eqb (a b : result) : bool :=
  match a, b with
  | RUnit, RUnit => true
  | RVal x, RVal y => opt_eqb x y
  | RBool x, RBool y => Bool.eqb x y
  | _, _ => false
  end.
Lemma res_eqb_true a b : res_eqb a b = true -> a = b.
Proof.
  destruct a as [|[x|]|x], b as [|[y|]|y]; cbn; intros H; try discriminate; try reflexivity.
  - apply Nat.eqb_eq in H. subst. reflexivity.
  - apply Bool.eqb_prop in H. subst. reflexivity.
Qed.
Lemma res_eqb_refl a : res_eqb a a = true.
Proof. destruct a as [|[x|]|x]; cbn; auto using Nat.eqb_refl, Bool.eqb_reflx. Qed.

Notation mon := (mon gstate opn result).
Notation mstep := (mstep gstate opn result mspec res_eqb).
Notation mrun := (mrun gstate opn result mspec res_eqb).
Notation minit := (minit gstate opn result).
Notation IInv := (IInv opn result).
Notation ICommit := (ICommit opn result).
Notation IRet := (IRet opn result).

Definition project1 (s : lst) (e : lev) : list (iev opn result) :=
  match e with
  | EInvoke t o => [IInv t o]
  | EPublish t => [ICommit t]
  | ELookup t => [ICommit t]
  | EReturn t => match thr s t with
                 | PWUnlocked r => [IRet t r]
                 | PGDone r => [IRet t (RVal r)]
                 | _ => []
                 end
  | _ => []
  end.

Fixpoint project (s : lst) (es : list lev) : list (iev opn result) :=
  match es with
  | [] => []
  | e :: es' => project1 s e ++ match lstep rule_fixed s e with Some s' => project s' es' | None => [] end
  end.

Definition pc_status (p : pc) (st : tstatus opn result) : Prop :=
  match p with
  | PIdle => st = Idle _ _
  | PWWait o | PWLocked o | PWWriting o | PWWritten o _ => exists id, st = Pending _ _ id o
  | PWPublished r | PWUnlocked r => exists id o, st = Committed _ _ id o r
  | PGWait k | PGHave k _ => exists id, st = Pending _ _ id (OpGet k)
  | PGLooked _ _ _ r | PGRemapped _ _ _ r | PGRead _ r | PGDone r => exists id o, st = Committed _ _ id o (RVal r)
  | PPanicked => False
  end.

Definition idx_ok (s : lst) : Prop :=
  forall k, match index s k with
            | Some (pos, len) => exists rc, rec_at (data s) pos = Some rc /\ rv rc = gmap s k /\ gmap s k <> None
            | None => gmap s k = None
            end.

Definition sim (s : lst) (m : mon) : Prop :=
  ghost _ _ _ m = gmap s /\ (forall t, pc_status (thr s t) (status _ _ _ m t)) /\ idx_ok s.

Definition entry_ok (d : list rec) (i : option (nat * nat)) (g : option val) : Prop :=
  match i with
  | Some (pos, len) => exists rc, rec_at d pos = Some rc /\ rv rc = g /\ g <> None
  | None => g = None
  end.

Lemma entry_ok_mono d d' i g : (forall pos r, rec_at d pos = Some r -> rec_at d' pos = Some r) -> entry_ok d i g -> entry_ok d' i g.
Proof. intros H. destruct i as [[pos len]|]; [|auto]. intros (rc & H1 & H2). exists rc. auto. Qed.

(* the left side is what [lstep] computes at a lookup *)
Lemma entry_ok_value d i g : entry_ok d i g ->
  match i with Some (pos, _) => match rec_at d pos with Some rc => rv rc | None => None end | None => None end = g.
Proof. destruct i as [[pos len]|]; [intros (rc & H1 & H2 & _); rewrite H1; exact H2|intros H; symmetry; exact H]. Qed.

Lemma idx_ok_upd s pa wl po th k i g : idx_ok s -> entry_ok (data s) i g ->
  idx_ok (mkL (data s) pa (upd (index s) k i) (upd (gmap s) k g) wl po th).
Proof. intros H Hn. exact (upd_forall2 (entry_ok (data s)) (index s) (gmap s) k i g H Hn). Qed.

Lemma idx_ok_same s s' : data s' = data s -> index s' = index s -> gmap s' = gmap s -> idx_ok s -> idx_ok s'.
Proof. intros E1 E2 E3 H k. specialize (H k). rewrite E1, E2, E3. exact H. Qed.

(* a step that the monitor does not see: thread [t] moves to a pc of the same status and the file may
   grow; the partial record, the mutex and the pool are not part of the relation *)
Lemma sim_silent s m t p p' d' pa wl po : sim s m -> thr s t = p -> pc_status p' = pc_status p ->
  (forall pos r, rec_at (data s) pos = Some r -> rec_at d' pos = Some r) ->
  exists m', mrun m [] = Some m' /\ sim (mkL d' pa (index s) (gmap s) wl po (upd (thr s) t p')) m'.
Proof.
  intros (Hg & Hs & Hi) Et Ep Hd. exists m. split; [reflexivity|]. split; [exact Hg|]. split.
  - apply (upd_forall (fun u q => pc_status q (status _ _ _ m u))); [intros u _; apply Hs|].
    rewrite Ep, <- Et. apply Hs.
  - intros k. exact (entry_ok_mono _ d' _ _ Hd (Hi k)).
Qed.

Lemma step_sim s m e s' : safe s -> sim s m -> lstep rule_fixed s e = Some s' ->
  exists m', mrun m (project1 s e) = Some m' /\ sim s' m'.
Proof.
  intros HS HR E. pose proof HR as (Hg & Hs & Hi).
  destruct e as [t o|t|t|t n|t|t|t|t|t|t|t|t|t]; cbn [project1]; pose proof (Hs t) as Hst; pose proof (safe_pc s t HS) as Hp;
    unfold lstep, set_thr in E.
  - (* invoke *)
    destruct (thr s t); try discriminate. destruct (wf_op o); [|discriminate]. injection E as <-.
    cbn [Lin.mrun Lin.mstep]. rewrite Hst. eexists. split; [reflexivity|]. split; [exact Hg|]. split; [|exact Hi].
    apply (upd_forall2 pc_status); [exact Hs|]. destruct o; cbn; eauto.
  - (* lock *)
    destruct (thr s t) eqn:Et; try discriminate. destruct (wlock s); try discriminate. injection E as <-.
    eapply sim_silent; [exact HR|exact Et|reflexivity|auto].
  - (* begin *)
    destruct (thr s t) eqn:Et; try discriminate. destruct (partial s); try discriminate.
    destruct (Nat.ltb 0 (rlen (rec_of o))); [|discriminate]. injection E as <-.
    eapply sim_silent; [exact HR|exact Et|reflexivity|auto].
  - (* grow *)
    destruct (thr s t); try discriminate. destruct (partial s) as [[r m0]|]; try discriminate.
    destruct (Nat.leb (m0 + n) (rlen r)); [|discriminate]. injection E as <-.
    exists m. split; [reflexivity|exact HR].
  - (* finish *)
    destruct (thr s t) eqn:Et; try discriminate. destruct (partial s) as [[r m0]|]; try discriminate.
    destruct (Nat.eqb m0 (rlen r)); [|discriminate]. injection E as <-.
    eapply sim_silent; [exact HR|exact Et|reflexivity|]. intros pos r0. apply rec_at_app.
  - (* publish = commit of put / del *)
    destruct (thr s t) as [| | | |o pos| | | | | | | | |] eqn:Et; try discriminate. destruct Hst as (id & Hst).
    destruct Hp as [Hrec _].
    destruct o as [k v len|k|k len]; try discriminate; injection E as <-;
      cbn [Lin.mrun Lin.mstep]; rewrite Hst; cbn [mspec]; eexists; (split; [reflexivity|]);
      (split; [cbn [ghost gmap]; rewrite Hg; reflexivity|]); split.
    + apply (upd_forall2 pc_status); [exact Hs|cbn; eauto].
    + apply idx_ok_upd; [exact Hi|].
      exists (rec_of (OpPut k v len)). split; [exact Hrec|]. split; [reflexivity|discriminate].
    + apply (upd_forall2 pc_status); [exact Hs|]. cbn. rewrite Hg. specialize (Hi k). unfold is_some.
      destruct (index s k) as [[p l]|]; cbn [entry_ok] in Hi; [destruct Hi as (rc & _ & _ & Hne); destruct (gmap s k); [eauto|contradiction]|rewrite Hi; eauto].
    + apply idx_ok_upd; [exact Hi|reflexivity].
  - (* unlock *)
    destruct (thr s t) eqn:Et; try discriminate. injection E as <-.
    eapply sim_silent; [exact HR|exact Et|reflexivity|auto].
  - (* checkout *)
    destruct (thr s t) eqn:Et; try discriminate. destruct (pool s); try discriminate. injection E as <-.
    eapply sim_silent; [exact HR|exact Et|reflexivity|auto].
  - (* lookup = commit of get *)
    destruct (thr s t); try discriminate. injection E as <-. destruct Hst as (id & Hst).
    cbn [Lin.mrun Lin.mstep]. rewrite Hst. cbn [mspec]. eexists. split; [reflexivity|]. split; [exact Hg|]. split; [|exact Hi].
    apply (upd_forall2 pc_status); [exact Hs|]. cbn. rewrite (entry_ok_value _ _ _ (Hi k)), Hg. eauto.
  - (* remap *)
    destruct (thr s t) as [| | | | | | | | |k ml loc r| | | |] eqn:Et; try discriminate.
    destruct loc as [[pos len]|]; injection E as <-; (eapply sim_silent; [exact HR|exact Et|reflexivity|auto]).
  - (* slice *)
    destruct (thr s t) as [| | | | | | | | | |k ml [pos len] r| | |] eqn:Et; try discriminate.
    rewrite (pc_ok_fits _ _ _ _ _ _ _ _ _ Hp) in E. injection E as <-. eapply sim_silent; [exact HR|exact Et|reflexivity|auto].
  - (* checkin *)
    destruct (thr s t) eqn:Et; try discriminate. injection E as <-.
    eapply sim_silent; [exact HR|exact Et|reflexivity|auto].
  - (* return *)
    destruct (thr s t); try discriminate; injection E as <-; destruct Hst as (id & o & Hst);
      cbn [Lin.mrun Lin.mstep]; rewrite Hst, res_eqb_refl; eexists; (split; [reflexivity|]);
      (split; [exact Hg|]); (split; [|exact Hi]); (apply (upd_forall2 pc_status); [exact Hs|reflexivity]).
Qed.

Lemma sim_init cap : sim (linit cap) (minit (fun _ => None)).
Proof. split; [reflexivity|]. split; [intros t|intros k]; reflexivity. Qed.

(* C04 / C11 in the model: for EVERY schedule [es] that the interleaving model can execute — any
   number of threads, preemption between any two steps, a record's bytes appearing in the file in any
   increments — the instrumented history is accepted by the monitor, therefore ([commit_order_linearizes])
   the commit order is a sequential execution of the map specification that reproduces every result,
   contains every completed operation and respects real time; and the final abstract map is the one the
   index denotes. *)
Theorem every_schedule_linearizable cap es s :
  lrun rule_fixed (linit cap) es = Some s ->
  exists m, mrun (minit (fun _ => None)) (project (linit cap) es) = Some m /\
    ghost _ _ _ m = gmap s /\
    replay _ _ _ mspec res_eqb (fun _ => None) (lin _ _ _ m) = (gmap s, true) /\
    (forall id, In id (returned _ _ _ m) -> In id (ids_of _ _ (lin _ _ _ m))) /\
    (forall id rs a l1 l2, In (id, rs) (before _ _ _ m) -> In a rs -> ids_of _ _ (lin _ _ _ m) = l1 ++ id :: l2 -> In a l1).
Proof.
  intros E.
  destruct (sim_linearizes gstate opn result mspec res_eqb lst lev (lstep rule_fixed) project1 project (fun s m => safe s /\ sim s m))
    with (s0 := linit cap) (g0 := fun _ : key => @None val) (es := es) (s := s) as (m & Hm & [_ (Hg & _)] & H).
  - reflexivity.
  - intros s0 e es0 s1 H. cbn [project]. rewrite H. reflexivity.
  - intros s0 m e s1 [HS HR] H. destruct (step_sim s0 m e s1 HS HR H) as (m' & Hm' & HR').
    exists m'. split; [exact Hm'|]. split; [exact (step_safe _ _ _ HS H)|exact HR'].
  - exact res_eqb_refl.
  - split; [apply init_safe|apply sim_init].
  - exact E.
  - exists m. rewrite <- Hg. auto.
Qed.
