(* Base/Run.v — runs of a partial transition function over a list of events: the shape every
   transition system of Conc/ and Sys/ gives its schedules ([mrun], [lrun], [run], [wrun], … unfold
   to [orun] of their step function), with the induction over a run done once. *)
From Coq Require Import List PeanoNat.
Import ListNotations.

Section Run.
Variables St Ev : Type.
Variable step : St -> Ev -> option St.

Fixpoint orun (s : St) (es : list Ev) : option St :=
  match es with [] => Some s | e :: es' => match step s e with Some s' => orun s' es' | None => None end end.

Lemma orun_app es1 es2 s : orun s (es1 ++ es2) = match orun s es1 with Some s1 => orun s1 es2 | None => None end.
Proof.
  revert s. induction es1 as [|e es1 IH]; intros s; cbn [app orun]; [reflexivity|].
  destruct (step s e); [apply IH|reflexivity].
Qed.

Variable G : St -> Ev -> Prop.
Fixpoint guarded (s : St) (es : list Ev) : Prop :=
  match es with
  | [] => True
  | e :: es' => G s e /\ match step s e with Some s' => guarded s' es' | None => True end
  end.

Lemma orun_inv (P : St -> Prop) :
  (forall s e s', P s -> G s e -> step s e = Some s' -> P s') ->
  forall es s s', P s -> guarded s es -> orun s es = Some s' -> P s'.
Proof.
  intros Hstep. induction es as [|e es IH]; intros s s' HP Hg H; cbn [orun guarded] in *.
  - inversion H; subst; exact HP.
  - destruct Hg as [Hge Hg]. destruct (step s e) as [s1|] eqn:E; [|discriminate].
    exact (IH s1 s' (Hstep s e s1 HP Hge E) Hg H).
Qed.
End Run.

Arguments orun {St Ev}.
Arguments guarded {St Ev}.
Arguments orun_app {St Ev}.
Arguments orun_inv {St Ev}.

Lemma guarded_Forall {St Ev} (step : St -> Ev -> option St) (Q : Ev -> Prop) es :
  Forall Q es -> forall s, guarded step (fun _ e => Q e) s es.
Proof.
  induction 1 as [|e es He _ IH]; intros s; cbn [guarded]; [exact I|].
  split; [exact He|]. destruct (step s e); [apply IH|exact I].
Qed.

Lemma orun_inv_all {St Ev} (step : St -> Ev -> option St) (P : St -> Prop) :
  (forall s e s', P s -> step s e = Some s' -> P s') ->
  forall es s s', P s -> orun step s es = Some s' -> P s'.
Proof.
  intros Hstep es s s' HP. apply (orun_inv step (fun _ _ => True) P); [intros; eauto|exact HP|].
  apply (guarded_Forall step (fun _ => True)). apply Forall_forall. intros; exact I.
Qed.

Lemma orun_inv_Forall {St Ev} (step : St -> Ev -> option St) (Q : Ev -> Prop) (P : St -> Prop) :
  (forall s e s', P s -> Q e -> step s e = Some s' -> P s') ->
  forall es s s', P s -> Forall Q es -> orun step s es = Some s' -> P s'.
Proof.
  intros Hstep es s s' HP Hes. exact (orun_inv step (fun _ => Q) P Hstep es s s' HP (guarded_Forall step Q es Hes s)).
Qed.

(* The models' [upd] and the monitor's [set_status] unfold to the conditional below, so these two lemmas
   serve all of them. *)
Lemma upd_forall {A} (P : nat -> A -> Prop) (f : nat -> A) t x :
  (forall u, u <> t -> P u (f u)) -> P t x -> forall u, P u (if Nat.eqb u t then x else f u).
Proof. intros Hf Hx u. destruct (Nat.eqb_spec u t) as [->|Hne]; [exact Hx|exact (Hf u Hne)]. Qed.

Lemma upd_forall2 {A B} (P : A -> B -> Prop) (f : nat -> A) (g : nat -> B) t x y :
  (forall u, P (f u) (g u)) -> P x y -> forall u, P (if Nat.eqb u t then x else f u) (if Nat.eqb u t then y else g u).
Proof. intros Hf Hx u. destruct (Nat.eqb u t); [exact Hx|exact (Hf u)]. Qed.
