(* Sys/LimitRun.v — the connection limit under an eager scheduler, with identities: clients open connections
   (which wait in the accept backlog until the listener takes them), served connections end in one of the ways a
   handler can end, waiting clients give up.  After every action the listener and the handlers run as far as
   they can ([settle]); every move is a [step] of Sys/Limit.v, so every world reached here is a state of that
   transition system ([world_reachable]) and its theorems apply.  Evaluated on generated action lists and
   compared with the real server (which connections are served, which wait) by the C15 check. *)
From Coq Require Import List Arith Lia Bool.
Import ListNotations.
From BC Require Import Sys.Limit.

Inductive action :=
| AOpen                              (* a client connects (and sends a probe request) *)
| AEndServed (n : nat) (why : ending)  (* the (n mod #served)-th served connection ends *)
| ADropPending (n : nat).            (* the (n mod #waiting)-th waiting client closes its socket *)

Record world := mkW {
  sy : sys;
  served : list nat;                 (* ids being served, oldest first *)
  pend : list (nat * bool);          (* accept backlog: id, and whether its client is still there *)
  next : nat;                        (* next id *)
  trace : list event                 (* ghost: the events of Sys/Limit.v taken so far, newest first *)
}.

Fixpoint settle (fuel : nat) (w : world) : world :=
  match fuel with
  | O => w
  | S f =>
    match listener (sy w) with
    | LWaiting =>
      match step (sy w) Acquire with
      | Some s' => settle f (mkW s' (served w) (pend w) (next w) (Acquire :: trace w))
      | None => w                                                   (* no permit: wait for a handler to end *)
      end
    | LHolding =>
      match pend w with
      | [] => w                                                     (* waiting in accept() *)
      | (i, alive) :: rest =>
        match step (sy w) Accept with
        | Some s' =>
          if alive then settle f (mkW s' (served w ++ [i]) rest (next w) (Accept :: trace w))
          else match step s' (HandlerEnd ByClientClose) with         (* the handler reads end-of-stream at once *)
               | Some s'' => settle f (mkW s'' (served w) rest (next w) (HandlerEnd ByClientClose :: Accept :: trace w))
               | None => w
               end
        | None => w
        end
      end
    | LStopped => w
    end
  end.

Definition fuel_for (w : world) : nat := 2 * length (pend w) + 4.

Fixpoint remove_nth {A} (n : nat) (l : list A) : list A :=
  match l, n with [], _ => [] | _ :: l', O => l' | x :: l', S k => x :: remove_nth k l' end.
Fixpoint kill_nth_alive (n : nat) (l : list (nat * bool)) : list (nat * bool) :=
  match l with
  | [] => []
  | (i, false) :: l' => (i, false) :: kill_nth_alive n l'
  | (i, true) :: l' => match n with O => (i, false) :: l' | S k => (i, true) :: kill_nth_alive k l' end
  end.
Definition alive_ids (l : list (nat * bool)) : list nat := map fst (filter snd l).

Definition act (w : world) (a : action) : world :=
  match a with
  | AOpen =>
    let w1 := mkW (sy w) (served w) (pend w ++ [(next w, true)]) (S (next w)) (trace w) in settle (fuel_for w1) w1
  | AEndServed n why =>
    match served w with
    | [] => w
    | _ => let k := n mod length (served w) in
           match step (sy w) (HandlerEnd why) with
           | Some s' => let w1 := mkW s' (remove_nth k (served w)) (pend w) (next w) (HandlerEnd why :: trace w) in settle (fuel_for w1) w1
           | None => w
           end
    end
  | ADropPending n =>
    match alive_ids (pend w) with
    | [] => w
    | ids => let w1 := mkW (sy w) (served w) (kill_nth_alive (n mod length ids) (pend w)) (next w) (trace w) in settle (fuel_for w1) w1
    end
  end.

Definition start (max : nat) : world := let w := mkW (init max) [] [] 0 [] in settle 4 w.
Definition play (max : nat) (acts : list action) : world := fold_left act acts (start max).

Definition wok (max : nat) (w : world) : Prop :=
  run (init max) (rev (trace w)) = Some (sy w) /\ length (served w) = serving (sy w).

Lemma run_snoc s es e s1 s2 : run s es = Some s1 -> step s1 e = Some s2 -> run s (es ++ [e]) = Some s2.
Proof. intros H1 H2. rewrite run_app, H1. cbn [run]. rewrite H2. reflexivity. Qed.

Lemma settle_ok max : forall fuel w, wok max w -> wok max (settle fuel w).
Proof.
  induction fuel as [|f IH]; intros w [Hr Hl]; cbn [settle]; [now split|].
  destruct (listener (sy w)).
  - destruct (step (sy w) Acquire) as [s'|] eqn:Es; [|now split]. apply IH. split; cbn [trace sy served rev].
    + eapply run_snoc; eassumption.
    + destruct (step_inv _ _ _ Es) as (_ & _ & _ & Hs). lia.
  - destruct (pend w) as [|[i alive] rest]; [now split|].
    destruct (step (sy w) Accept) as [s'|] eqn:Es; [|now split].
    destruct (step_inv _ _ _ Es) as (_ & _ & _ & Hs).
    destruct alive.
    + apply IH. split; cbn [trace sy served rev].
      * eapply run_snoc; eassumption.
      * rewrite app_length. cbn [length]. lia.
    + destruct (step s' (HandlerEnd ByClientClose)) as [s''|] eqn:Es2; [|now split]. apply IH. split; cbn [trace sy served rev].
      * eapply run_snoc; [eapply run_snoc; eassumption|exact Es2].
      * destruct (step_inv _ _ _ Es2) as (_ & _ & Hs2). lia.
  - now split.
Qed.

Lemma remove_nth_length {A} : forall (l : list A) n, n < length l -> length (remove_nth n l) = length l - 1.
Proof.
  induction l as [|x l IH]; intros n H; cbn [length] in *; [lia|]. destruct n; cbn [remove_nth length]; [lia|].
  rewrite IH by lia. lia.
Qed.

Lemma act_ok max w a : wok max w -> wok max (act w a).
Proof.
  intros Hw. pose proof Hw as [Hr Hl]. destruct a as [|n why|n]; cbn [act].
  - apply settle_ok. now split.
  - destruct (served w) as [|i0 sv] eqn:Esv; [exact Hw|].
    destruct (step (sy w) (HandlerEnd why)) as [s'|] eqn:Es; [|exact Hw].
    apply settle_ok. split; cbn [trace sy served rev].
    + eapply run_snoc; eassumption.
    + destruct (step_inv _ _ _ Es) as (_ & _ & Hs).
      rewrite remove_nth_length; [lia|]. apply Nat.mod_upper_bound. cbn [length]. lia.
  - destruct (alive_ids (pend w)); [exact Hw|]. apply settle_ok. now split.
Qed.

Lemma start_ok max : wok max (start max).
Proof. unfold start. apply settle_ok. split; reflexivity. Qed.

Theorem world_reachable max acts : wok max (play max acts).
Proof.
  unfold play. generalize (start_ok max). generalize (start max). induction acts as [|a acts IH]; intros w H; cbn [fold_left]; [exact H|].
  apply IH. now apply act_ok.
Qed.

(* hence: whatever clients do, never more than [max] connections are served *)
Corollary play_limit max acts : length (served (play max acts)) <= max.
Proof.
  destruct (world_reachable max acts) as [Hr Hl]. rewrite Hl. eapply limit_holds. exact Hr.
Qed.
