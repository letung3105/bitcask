(* Sys/Trigger.v — the merge trigger of Context::can_merge (src/storage/bitcask.rs) with the
   fragmentation computed as the code computes it: in IEEE-754 binary64 (u64 as f64, +, /, >),
   using Flocq's executable binary64.  Thresholds are binary64 values given as the quotient of two
   integers, which is how the harness builds them (num as f64 / den as f64).
   For small counters and dyadic thresholds the comparison is the rational one ([f64_frag_agrees],
   from Flocq's correctness theorems, Section F64).  Flocq's binary64 is built over Coq's Reals, so
   every statement about it here, the evaluated ones included, rests on the four axioms of the
   classical reals. *)
From Coq Require Import Reals Lia Lra.
From Flocq Require Import Core IEEE754.BinarySingleNaN IEEE754.Binary IEEE754.Bits.
From BC Require Import Store.Engine.
Open Scope N_scope.

Definition f64_of_N (n : N) : binary64 :=
  binary_normalize 53 1024 (refl_equal _) (refl_equal _) mode_NE (Z.of_N n) 0 false.
Definition f64_div := b64_div mode_NE.
Definition f64_add := b64_plus mode_NE.
Definition f64_gt (a b : binary64) : bool := match b64_compare a b with Some Gt => true | _ => false end.
Definition f64_ratio (num den : N) : binary64 := f64_div (f64_of_N num) (f64_of_N den).

(* LogStatistics::fragmentation *)
Definition fragmentation (c : cnt) : binary64 :=
  if dead c =? 0 then f64_of_N 0
  else f64_div (f64_of_N (dead c)) (f64_add (f64_of_N (dead c)) (f64_of_N (live c))).

(* [PWindow a z h]: the window policy with hours a..z (inclusive, as the code compares), evaluated at local hour h:
   the hour is an input (chrono::Local::now()), like the clock of the engine *)
Inductive policy := PAlways | PNever | PWindow (a z h : N).
Record triggers := mkTrig { t_frag_num : N; t_frag_den : N; t_dead : N }.

Definition file_triggers (t : triggers) (c : cnt) : bool :=
  (t_dead t <? dead_bytes c) || f64_gt (fragmentation c) (f64_ratio (t_frag_num t) (t_frag_den t)).

Definition can_merge (p : policy) (t : triggers) (s : st) : bool :=
  match p with
  | PNever => false
  | PAlways => existsb (fun f => file_triggers t (sget0 (s_stats s) f)) (stat_ids (s_stats s))
  | PWindow a z h =>
    if (h <? a) || (z <? h) then false
    else existsb (fun f => file_triggers t (sget0 (s_stats s) f)) (stat_ids (s_stats s))
  end.

Lemma can_merge_window a z h t s :
  can_merge (PWindow a z h) t s = (a <=? h) && (h <=? z) && can_merge PAlways t s.
Proof. unfold can_merge. rewrite !N.ltb_antisym. destruct (a <=? h), (h <=? z); reflexivity. Qed.

(* the rational reading of the same comparison, for counters and thresholds small enough *)
Definition frag_gt_Q (c : cnt) (num den : N) : bool :=
  if dead c =? 0 then false else num * (dead c + live c) <? dead c * den.

(* binary64 and the rationals agree on every pair of counters up to 40 and every threshold k/8 ... *)
Definition small_agree : bool :=
  forallb (fun d => forallb (fun l => forallb (fun k =>
    Bool.eqb (f64_gt (fragmentation (mkCnt l d 0)) (f64_ratio k 8)) (frag_gt_Q (mkCnt l d 0) k 8))
    (map N.of_nat (seq 0 9))) (map N.of_nat (seq 0 41))) (map N.of_nat (seq 0 41)).

Section F64.
Local Open Scope R_scope.

Definition f64_round : R -> R := round radix2 (SpecFloat.fexp 53 1024) (round_mode mode_NE).
Definition f64_format : R -> Prop := generic_format radix2 (SpecFloat.fexp 53 1024).

Lemma f64_format_F2R m e : (Z.abs m < 2^53)%Z -> (-1074 <= e)%Z -> f64_format (F2R (Float radix2 m e)).
Proof.
  intros Hm He. apply generic_format_FLT. exact (FLT_spec _ _ _ _ (Float radix2 m e) eq_refl Hm He).
Qed.
Lemma f64_format_IZR m : (Z.abs m < 2^53)%Z -> f64_format (IZR m).
Proof.
  intros Hm. replace (IZR m) with (F2R (Float radix2 m 0)).
  - apply f64_format_F2R; [exact Hm|discriminate].
  - apply Rmult_1_r.
Qed.
Lemma f64_format_dyadic m j : (Z.abs m < 2^53)%Z -> (0 <= j <= 1074)%Z -> f64_format (IZR m / IZR (2^j)).
Proof.
  intros Hm Hj. replace (IZR m / IZR (2^j)) with (F2R (Float radix2 m (-j))).
  - apply f64_format_F2R; [exact Hm|lia].
  - unfold F2R, Rdiv. cbn [Fnum Fexp]. rewrite bpow_opp, <- IZR_Zpower by lia. reflexivity.
Qed.

Lemma f64_round_le x y : x <= y -> f64_round x <= f64_round y.
Proof. apply round_le; [exact (fexp_correct 53 1024 eq_refl)|apply valid_rnd_round_mode]. Qed.
Lemma f64_round_format x : f64_format x -> f64_round x = x.
Proof. apply round_generic, valid_rnd_round_mode. Qed.
Lemma f64_round_bounds lo hi x : f64_format lo -> f64_format hi -> lo <= x <= hi -> lo <= f64_round x <= hi.
Proof.
  intros Flo Fhi [H1 H2]. split.
  - rewrite <- (f64_round_format lo Flo). apply f64_round_le, H1.
  - rewrite <- (f64_round_format hi Fhi). apply f64_round_le, H2.
Qed.

Lemma f64_in_range x : Rabs x <= IZR (2^53) -> Rlt_bool (Rabs x) (bpow radix2 1024) = true.
Proof.
  intros H. apply Rlt_bool_true. apply Rle_lt_trans with (1 := H).
  change (IZR (2^53)) with (IZR (radix2^53)). rewrite IZR_Zpower by discriminate. apply bpow_lt. reflexivity.
Qed.

Definition f64_is (x : binary64) (r : R) : Prop := is_finite 53 1024 x = true /\ B2R 53 1024 x = r.

Lemma f64_of_N_correct n : (n < 2^53)%N -> f64_is (f64_of_N n) (IZR (Z.of_N n)).
Proof.
  intros Hn. assert (Hz : (Z.abs (Z.of_N n) < 2^53)%Z) by lia.
  pose proof (binary_normalize_correct 53 1024 eq_refl eq_refl mode_NE (Z.of_N n) 0 false) as P.
  fold f64_round in P. fold (f64_of_N n) in P.
  replace (F2R (Float radix2 (Z.of_N n) 0)) with (IZR (Z.of_N n)) in P by (symmetry; apply Rmult_1_r).
  rewrite f64_round_format in P by (apply f64_format_IZR, Hz).
  rewrite f64_in_range in P by (rewrite <- abs_IZR; apply IZR_le; lia).
  split; apply P.
Qed.

Lemma f64_add_small a b n m : f64_is a (IZR n) -> f64_is b (IZR m) -> (Z.abs (n + m) < 2^53)%Z ->
  f64_is (f64_add a b) (IZR (n + m)).
Proof.
  intros [Fa Va] [Fb Vb] H.
  pose proof (Bplus_correct 53 1024 eq_refl eq_refl binop_nan_pl64 mode_NE a b Fa Fb) as P.
  fold f64_round in P. rewrite Va, Vb, <- plus_IZR, f64_round_format in P by (apply f64_format_IZR, H).
  rewrite f64_in_range in P by (rewrite <- abs_IZR; apply IZR_le; lia).
  split; apply P.
Qed.

Lemma IZR_div_le a b c d : (0 < b)%Z -> (0 < d)%Z -> (a * d <= c * b)%Z -> IZR a / IZR b <= IZR c / IZR d.
Proof.
  intros Hb Hd H. apply IZR_lt in Hb, Hd. apply IZR_le in H. rewrite 2 mult_IZR in H.
  replace (IZR a / IZR b) with (IZR a * IZR d / (IZR b * IZR d)) by (field; lra).
  replace (IZR c / IZR d) with (IZR c * IZR b / (IZR b * IZR d)) by (field; lra).
  apply Rmult_le_compat_r; [|exact H]. left. apply Rinv_0_lt_compat, Rmult_lt_0_compat; assumption.
Qed.
Lemma IZR_div_lt a b c d : (0 < b)%Z -> (0 < d)%Z -> (a * d < c * b)%Z -> IZR a / IZR b < IZR c / IZR d.
Proof.
  intros Hb Hd H. apply IZR_lt in Hb, Hd, H. rewrite 2 mult_IZR in H.
  replace (IZR a / IZR b) with (IZR a * IZR d / (IZR b * IZR d)) by (field; lra).
  replace (IZR c / IZR d) with (IZR c * IZR b / (IZR b * IZR d)) by (field; lra).
  apply Rmult_lt_compat_r; [|exact H]. apply Rinv_0_lt_compat, Rmult_lt_0_compat; assumption.
Qed.

(* no overflow: the rounded quotient lies between 0 and n, both in the format *)
Lemma f64_div_small a b n m : f64_is a (IZR n) -> f64_is b (IZR m) -> (0 <= n < 2^53)%Z -> (0 < m)%Z ->
  f64_is (f64_div a b) (f64_round (IZR n / IZR m)).
Proof.
  intros [Fa Va] [_ Vb] Hn Hm.
  pose proof (Bdiv_correct 53 1024 eq_refl eq_refl binop_nan_pl64 mode_NE a b) as P.
  fold f64_round in P. rewrite Va, Vb in P.
  destruct (f64_round_bounds 0 (IZR n) (IZR n / IZR m)) as [H0 H1].
  - apply (f64_format_IZR 0). reflexivity.
  - apply f64_format_IZR. lia.
  - split.
    + apply Rle_mult_inv_pos; [apply IZR_le|apply IZR_lt]; lia.
    + replace (IZR n) with (IZR n / IZR 1) at 2 by field. apply IZR_div_le; nia.
  - rewrite f64_in_range in P by (rewrite Rabs_pos_eq by exact H0; apply Rle_trans with (1 := H1), IZR_le; lia).
    destruct P as (V & F & _); [apply not_0_IZR; lia|]. split; [exact (eq_trans F Fa)|exact V].
Qed.

Lemma f64_ratio_correct n m : (n < 2^53)%N -> (0 < m < 2^53)%N ->
  f64_is (f64_ratio n m) (f64_round (IZR (Z.of_N n) / IZR (Z.of_N m))).
Proof.
  intros Hn Hm. apply f64_div_small; [apply f64_of_N_correct; lia|apply f64_of_N_correct; lia|lia|lia].
Qed.

Lemma fragmentation_correct c : (dead c + live c < 2^53)%N ->
  f64_is (fragmentation c) (f64_round (IZR (Z.of_N (dead c)) / IZR (Z.of_N (dead c + live c)))).
Proof.
  intros H. unfold fragmentation. destruct (N.eqb_spec (dead c) 0) as [E|E].
  - rewrite E. unfold Rdiv. rewrite Rmult_0_l, f64_round_format by (apply (f64_format_IZR 0); reflexivity).
    apply (f64_of_N_correct 0). reflexivity.
  - apply f64_div_small; [apply f64_of_N_correct; lia| |lia|lia].
    rewrite N2Z.inj_add. apply f64_add_small; [apply f64_of_N_correct; lia|apply f64_of_N_correct; lia|lia].
Qed.

Lemma f64_gt_correct a b x y : f64_is a x -> f64_is b y -> f64_gt a b = Rlt_bool y x.
Proof.
  intros [Fa <-] [Fb <-]. unfold f64_gt, b64_compare. rewrite Bcompare_correct by assumption.
  unfold Rlt_bool. rewrite (Rcompare_sym (B2R 53 1024 b)). destruct Rcompare; reflexivity.
Qed.

(* The threshold t = k/2^j is in the format, and rounding is monotone and fixes the format, so a
   quotient d/s <= t rounds to at most t.  If d/s > t then d/s - t >= 1/(2^j s) >= 2^-(j+e), and
   u = t + 2^-(j+e) is in the format as well (its numerator k 2^e + 1 has at most 53 bits), so
   d/s >= u rounds to at least u > t. *)
Lemma f64_round_quot_gt d s k j e :
  (0 < s <= 2^e)%Z -> (0 <= k <= 2^j)%Z -> (0 <= j)%Z -> (0 <= e)%Z -> (j + e <= 52)%Z ->
  Rlt_bool (f64_round (IZR k / IZR (2^j))) (f64_round (IZR d / IZR s)) = (k * s <? d * 2^j)%Z.
Proof.
  intros Hs Hk Hj He Hje.
  assert (Hp : (2^(j+e) = 2^j * 2^e)%Z) by (apply Z.pow_add_r; assumption).
  assert (Hp52 : (2^(j+e) <= 2^52)%Z) by (apply Z.pow_le_mono_r; lia).
  assert (HP : (0 < 2^j)%Z) by (apply Z.pow_pos_nonneg; lia).
  assert (HE : (0 < 2^e)%Z) by (apply Z.pow_pos_nonneg; lia).
  assert (Ft : f64_format (IZR k / IZR (2^j))) by (apply f64_format_dyadic; [nia|lia]).
  rewrite (f64_round_format _ Ft).
  destruct (Z.ltb_spec (k * s) (d * 2^j)) as [H|H].
  - apply Rlt_bool_true.
    apply Rlt_le_trans with (IZR (k * 2^e + 1) / IZR (2^(j+e))).
    + apply IZR_div_lt; [assumption|lia|]. rewrite Hp. lia.
    + rewrite <- (f64_round_format (IZR (k * 2^e + 1) / IZR (2^(j+e)))) by (apply f64_format_dyadic; [nia|lia]).
      apply f64_round_le, IZR_div_le; [lia|lia|]. rewrite Hp. nia.
  - apply Rlt_bool_false.
    rewrite <- (f64_round_format _ Ft).
    apply f64_round_le, IZR_div_le; [lia|assumption|exact H].
Qed.
End F64.

Lemma f64_frag_agrees c k j e : dead c + live c <= 2^e -> k <= 2^j -> j + e <= 52 ->
  f64_gt (fragmentation c) (f64_ratio k (2^j)) = frag_gt_Q c k (2^j).
Proof.
  intros Hs Hk Hje.
  assert (He : 2^e <= 2^52) by (apply N.pow_le_mono_r; lia).
  assert (Hj : 2^j <= 2^52) by (apply N.pow_le_mono_r; lia).
  assert (HP : 0 < 2^j) by (apply N.neq_0_lt_0, N.pow_nonzero; discriminate).
  erewrite f64_gt_correct; [|apply fragmentation_correct; lia|apply f64_ratio_correct; lia].
  unfold frag_gt_Q. destruct (N.eqb_spec (dead c) 0) as [E|E].
  - apply Rlt_bool_false, f64_round_le. rewrite E. unfold Rdiv at 1. rewrite Rmult_0_l.
    apply Rle_mult_inv_pos; [apply IZR_le|apply IZR_lt]; lia.
  - rewrite N2Z.inj_pow. change (Z.of_N 2) with 2%Z.
    rewrite (f64_round_quot_gt _ _ _ _ (Z.of_N e)); [|lia..].
    rewrite <- N2Z.inj_mul, <- (N2Z.inj_pow 2), <- N2Z.inj_mul.
    destruct (N.ltb_spec (k * (dead c + live c)) (dead c * 2 ^ j)); [apply Z.ltb_lt|apply Z.ltb_ge]; lia.
Qed.

Lemma small_agree_true : small_agree = true.
Proof.
  apply forallb_forall. intros d Hd. apply forallb_forall. intros l Hl. apply forallb_forall. intros k Hk.
  apply in_map_iff in Hd as [d' [<- Hd]], Hl as [l' [<- Hl]], Hk as [k' [<- Hk]].
  apply in_seq in Hd, Hl, Hk.
  change 8 with (2^3). rewrite (f64_frag_agrees _ _ 3 26); [apply Bool.eqb_reflx|cbn [dead live]; lia..].
Qed.

(* ... but not in general: 0.6 as a binary64 lies below 3/5, and 3 dead of 5 rounds to that same
   binary64, so "3/5 > 0.6" is false in the code although 3/5 exceeds the real number the constant
   0.6 denotes in binary64.  (The threshold 6/10 is the same binary64 as the literal 0.6.) *)
Example f64_threshold_is_not_rational :
  f64_gt (fragmentation (mkCnt 2 3 0)) (f64_ratio 6 10) = false /\
  bits_of_b64 (f64_ratio 6 10) = 4603579539098121011%Z /\       (* 0x3FE3333333333333 *)
  f64_gt (fragmentation (mkCnt 39 61 0)) (f64_ratio 6 10) = true.
Proof. vm_compute. repeat split. Qed.
