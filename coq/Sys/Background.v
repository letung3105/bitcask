(* Sys/Background.v — the two periodic tasks of src/storage/bitcask.rs (merge_on_interval,
   sync_on_interval) as a transition system over the engine model.  Real time is abstracted to
   ticks: a merge tick is the expiry of one sleep drawn from [interval*(1-j), interval*(1+j)], a
   sync tick the expiry of one sleep of the sync interval. *)
From BC Require Import Store.Engine Sys.Trigger.
Open Scope N_scope.

Record bcfg := mkB { b_cfg : cfg; b_policy : policy; b_trig : triggers; b_sync_interval : bool }.

Inductive bevent :=
| Client (o : op)                 (* an operation through a handle *)
| MergeTick (ord : list bytes)    (* the merge task wakes up; [ord] = iteration order if it merges *)
| SyncTick.                       (* the sync task wakes up *)

Inductive bobs := ONone | OMerged | OSkipped | OSynced (f : N) | OClient (r : out).

Definition bstep (b : bcfg) (s : st) (e : bevent) : st * bobs * list syscall :=
  match e with
  | Client o => let '(s', r, t) := step (b_cfg b) s o in (s', OClient r, t)
  | MergeTick ord =>
    match b_policy b with
    | PNever => (s, ONone, [])                    (* the task returned before its first sleep *)
    | p =>
      if can_merge p (b_trig b) s
      then match merge (b_cfg b) s ord with
           | ROk (s', _, t) => (s', OMerged, t)
           | _ => (s, OMerged, [])                (* a failed merge is logged, the task goes on *)
           end
      else (s, OSkipped, [])
    end
  | SyncTick => if b_sync_interval b then (s, OSynced (s_active s), [SFsync (FData (s_active s))]) else (s, ONone, [])
  end.

Fixpoint brun (b : bcfg) (s : st) (es : list bevent) : st * list bobs * list syscall :=
  match es with
  | [] => (s, [], [])
  | e :: es' => let '(s1, o, t) := bstep b s e in let '(s2, os, ts) := brun b s1 es' in (s2, o :: os, t ++ ts)
  end.

Lemma merge_tick_obs b s ord :
  snd (fst (bstep b s (MergeTick ord))) =
  match b_policy b with PNever => ONone | p => if can_merge p (b_trig b) s then OMerged else OSkipped end.
Proof.
  unfold bstep. destruct (merge (b_cfg b) s ord) as [[[s' u] t]| |], (b_policy b) as [| |a z h]; try reflexivity.
  all: destruct (can_merge _ (b_trig b) s); reflexivity.
Qed.

(* with policy `never` no wake-up of the merge task is answered [OMerged] *)
Theorem never_merges b : b_policy b = PNever -> forall es s, ~ In OMerged (snd (fst (brun b s es))).
Proof.
  intros Hp. induction es as [|e es IH]; intros s; cbn [brun]; [intros []|].
  destruct (bstep b s e) as [[s1 o] t] eqn:E. specialize (IH s1). destruct (brun b s1 es) as [[s2 os] ts]. cbn [fst snd] in *.
  intros [H|H]; [|exact (IH H)]. subst o. destruct e as [o'|ord|].
  - unfold bstep in E. destruct (step (b_cfg b) s o') as [[s' r] t']. inversion E.
  - pose proof (merge_tick_obs b s ord) as H. rewrite E, Hp in H. discriminate H.
  - unfold bstep in E. destruct (b_sync_interval b); inversion E.
Qed.

(* with policy `always`, at every wake-up of the merge task a merge runs exactly when some file
   exceeds a trigger (evaluated on the state at that instant, in binary64 as the code does) *)
Theorem always_merges_iff_triggered b s ord : b_policy b = PAlways ->
  snd (fst (bstep b s (MergeTick ord))) = if can_merge PAlways (b_trig b) s then OMerged else OSkipped.
Proof. intros Hp. rewrite merge_tick_obs, Hp. reflexivity. Qed.

(* with policy `window`, a wake-up inside the hours behaves as `always`, a wake-up outside them merges nothing *)
Theorem window_tick b s ord a z h : b_policy b = PWindow a z h ->
  snd (fst (bstep b s (MergeTick ord))) =
  if (a <=? h) && (h <=? z) then (if can_merge PAlways (b_trig b) s then OMerged else OSkipped) else OSkipped.
Proof.
  intros Hp. rewrite merge_tick_obs, Hp, can_merge_window. destruct (a <=? h), (h <=? z); reflexivity.
Qed.

(* with interval sync, every wake-up of the sync task forces the file that is active at that instant *)
Theorem sync_tick_forces_active b s : b_sync_interval b = true ->
  bstep b s SyncTick = (s, OSynced (s_active s), [SFsync (FData (s_active s))]).
Proof. intros H. unfold bstep. rewrite H. reflexivity. Qed.

(* client operations do not depend on the background tasks' configuration *)
Theorem client_unaffected b s o : fst (fst (bstep b s (Client o))) = fst (fst (step (b_cfg b) s o)).
Proof. unfold bstep. destruct (step (b_cfg b) s o) as [[s' r] t]. reflexivity. Qed.
