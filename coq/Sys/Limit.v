(* Sys/Limit.v — the connection limit of src/net/server.rs as a transition system.
     Listener::listen:  loop { limit_connections.acquire().await.unwrap().forget();   (Acquire)
                               let socket = self.accept().await?;                     (Accept / AcceptFail)
                               tokio::spawn(handler.run()) }
     Handler: Drop::drop  =>  limit_connections.add_permits(1)                        (HandlerEnd)
   A handler ends by client close, protocol error, store error, shutdown, or panic; in every case the
   task's future is dropped, so Drop runs (unwinding drops the future as well).
   Proved (C15): in every reachable state the free permits, the connections being served and the
   permit the listener holds add up to the configured maximum ([balanced]); the limit and the absence
   of leaks follow. *)
From Coq Require Import List Arith Lia Bool.
Import ListNotations.
From BC Require Import Base.Run.

Inductive lstate := LWaiting | LHolding | LStopped.
Record sys := mkSys { permits : nat; listener : lstate; serving : nat }.

Inductive ending := ByClientClose | ByProtocolError | ByStoreError | ByShutdown | ByPanic.
Inductive event := Acquire | Accept | AcceptFail | HandlerEnd (why : ending).

Definition step (s : sys) (e : event) : option sys :=
  match e with
  | Acquire => match listener s, permits s with
               | LWaiting, S p => Some (mkSys p LHolding (serving s))
               | _, _ => None
               end
  | Accept => match listener s with
              | LHolding => Some (mkSys (permits s) LWaiting (S (serving s)))
              | _ => None
              end
  | AcceptFail => match listener s with
                  | LHolding => Some (mkSys (permits s) LStopped (serving s))
                  | _ => None
                  end
  | HandlerEnd _ => match serving s with
                    | S n => Some (mkSys (S (permits s)) (listener s) n)
                    | O => None
                    end
  end.

Fixpoint run (s : sys) (es : list event) : option sys :=
  match es with
  | [] => Some s
  | e :: es' => match step s e with Some s' => run s' es' | None => None end
  end.

Definition init (max : nat) : sys := mkSys max LWaiting 0.
Definition held (s : sys) : nat := match listener s with LHolding | LStopped => 1 | LWaiting => 0 end.

(* a failed accept loop keeps its forgotten permit (the server is stopping anyway) and [held] counts it,
   so both cases state the one equation of [balanced_iff] *)
Definition balanced (max : nat) (s : sys) : Prop :=
  match listener s with
  | LStopped => permits s + serving s + 1 = max
  | _ => permits s + serving s + held s = max
  end.

Lemma balanced_iff max s : balanced max s <-> permits s + serving s + held s = max.
Proof. unfold balanced, held. destruct (listener s); reflexivity. Qed.

Lemma step_inv s e s' : step s e = Some s' ->
  match e with
  | Acquire => listener s = LWaiting /\ listener s' = LHolding /\ permits s = S (permits s') /\ serving s' = serving s
  | Accept => listener s = LHolding /\ listener s' = LWaiting /\ permits s' = permits s /\ serving s' = S (serving s)
  | AcceptFail => listener s = LHolding /\ listener s' = LStopped /\ permits s' = permits s /\ serving s' = serving s
  | HandlerEnd _ => listener s' = listener s /\ permits s' = S (permits s) /\ serving s = S (serving s')
  end.
Proof.
  unfold step. destruct e as [| | |why].
  - destruct (listener s), (permits s); intros [= <-]; cbn; auto.
  - destruct (listener s); intros [= <-]; cbn; auto.
  - destruct (listener s); intros [= <-]; cbn; auto.
  - destruct (serving s); intros [= <-]; cbn; auto.
Qed.

Lemma step_balanced max s e s' : balanced max s -> step s e = Some s' -> balanced max s'.
Proof.
  rewrite !balanced_iff. unfold held. intros H E. apply step_inv in E. destruct e.
  1-3: destruct E as (E1 & E2 & E); rewrite E1 in H; rewrite E2; lia.
  destruct E as (E1 & E). rewrite E1. lia.
Qed.

Theorem run_balanced max : forall es s s', balanced max s -> run s es = Some s' -> balanced max s'.
Proof. exact (orun_inv_all step (balanced max) (step_balanced max)). Qed.

Lemma init_balanced max : balanced max (init max).
Proof. apply balanced_iff. cbn. lia. Qed.

Lemma reachable_balanced max es s : run (init max) es = Some s -> balanced max s.
Proof. exact (run_balanced max es _ _ (init_balanced max)). Qed.

Lemma run_app es1 es2 s : run s (es1 ++ es2) = match run s es1 with Some s1 => run s1 es2 | None => None end.
Proof. exact (orun_app step es1 es2 s). Qed.

(* C15, first clause: never more than [max] connections are being served *)
Theorem limit_holds max es s : run (init max) es = Some s -> serving s <= max.
Proof. intros E. apply reachable_balanced, balanced_iff in E. lia. Qed.

(* C15, second clause: when every connection has ended — in whatever way each one ended — all
   slots are back: the free permits plus the one the listener may already hold are [max] *)
Theorem no_leak max es s : run (init max) es = Some s -> serving s = 0 -> permits s + held s = max.
Proof. intros E H0. apply reachable_balanced, balanced_iff in E. lia. Qed.

(* ... so the server can again serve the full configured number concurrently: from any reachable
   state with no connection being served, [max] Acquire/Accept pairs are all enabled *)
Fixpoint accepts (n : nat) : list event := match n with O => [] | S k => Acquire :: Accept :: accepts k end.

Lemma accepts_run : forall n p k, n <= p -> run (mkSys p LWaiting k) (accepts n) = Some (mkSys (p - n) LWaiting (k + n)).
Proof.
  induction n as [|n IH]; intros p k H; cbn [accepts run].
  - rewrite Nat.sub_0_r, Nat.add_0_r. reflexivity.
  - destruct p as [|p]; [lia|]. cbn [step listener permits serving]. rewrite IH by lia. f_equal. f_equal; lia.
Qed.

Theorem full_capacity_again max es s : run (init max) es = Some s -> serving s = 0 -> listener s = LWaiting ->
  exists s', run s (accepts max) = Some s' /\ serving s' = max.
Proof.
  intros E H0 Hl. pose proof (no_leak max es s E H0) as Hp. unfold held in Hp. rewrite Hl in Hp.
  destruct s as [p l n]. cbn in *. subst. rewrite Nat.add_0_r. rewrite accepts_run by lia. eexists. split; [reflexivity|]. cbn. lia.
Qed.

(* the way a handler ends is irrelevant to the accounting *)
Theorem ending_irrelevant s w1 w2 : step s (HandlerEnd w1) = step s (HandlerEnd w2).
Proof. reflexivity. Qed.
