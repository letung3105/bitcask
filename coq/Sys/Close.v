(* Sys/Close.v — closing a store (src/storage/bitcask.rs: Bitcask::drop -> Handle::close sets the
   `closed` flag and drops the broadcast sender; every Handle operation checks the flag first;
   the background worker selects between its timer and the shutdown channel).
   Proved: once closed, every operation is rejected, changes nothing and issues no system call; the
   worker can exit within two events, none a timer tick, once the sender is dropped, and not before. *)
From BC Require Import Base.Run Store.Engine.
From Coq Require Import Lia.
Open Scope N_scope.

Record hstore := mkH { h_closed : bool; h_st : st }.
Inductive hout := HOk (o : out) | HClosed.

Inductive hop := HOp (o : op) | HSync.

Definition hstep (c : cfg) (h : hstore) (o : hop) : hstore * hout * list syscall :=
  if h_closed h then (h, HClosed, [])
  else match o with
       | HOp o' => let '(s', r, t) := step c (h_st h) o' in (mkH false s', HOk r, t)
       | HSync => (h, HOk VUnit, [SFsync (FData (s_active (h_st h)))])
       end.

Definition drop_store (h : hstore) : hstore := mkH true (h_st h).

(* after the drop every operation fails with `closed`, changes nothing and issues no system call *)
Theorem closed_rejects c h o : h_closed h = true -> hstep c h o = (h, HClosed, []).
Proof. intros H. unfold hstep. rewrite H. reflexivity. Qed.

Fixpoint hrun (c : cfg) (h : hstore) (os : list hop) : hstore * list hout * list syscall :=
  match os with
  | [] => (h, [], [])
  | o :: os' => let '(h1, r, t) := hstep c h o in let '(h2, rs, ts) := hrun c h1 os' in (h2, r :: rs, t ++ ts)
  end.

Theorem closed_forever c os : forall h, h_closed h = true ->
  hrun c h os = (h, map (fun _ => HClosed) os, []).
Proof.
  induction os as [|o os IH]; intros h H; cbn [hrun map]; [reflexivity|].
  rewrite (closed_rejects c h o H), (IH h H). reflexivity.
Qed.

(* the background worker: one task, merge_on_interval and sync_on_interval alike *)
Inductive wstate :=
| WSelect (timer : nat)     (* in select { sleep(timer) | shutdown.recv() } *)
| WWorking                  (* timer fired: running merge / sync on a blocking thread *)
| WExited.
Record wsys := mkW { w : wstate; sender_alive : bool }.

Inductive wevent := Tick | WorkDone (next_timer : nat) | DropSender | ObserveClosed.

Definition wstep (s : wsys) (e : wevent) : option wsys :=
  match e, w s with
  | Tick, WSelect (S n) => Some (mkW (WSelect n) (sender_alive s))
  | Tick, WSelect O => Some (mkW WWorking (sender_alive s))                 (* sleep elapsed *)
  | WorkDone t, WWorking => Some (mkW (WSelect t) (sender_alive s))          (* back to the loop head, then the select *)
  | DropSender, _ => Some (mkW (w s) false)
  | ObserveClosed, WSelect _ => if sender_alive s then None else Some (mkW WExited false)   (* recv() completes: return *)
  | _, _ => None
  end.

Fixpoint wrun (s : wsys) (es : list wevent) : option wsys :=
  match es with [] => Some s | e :: es' => match wstep s e with Some s' => wrun s' es' | None => None end end.

(* once the store object is dropped the worker can exit without any timer tick, however far away
   its next timer is: at once if it is sleeping, after the work in progress otherwise *)
Theorem worker_exits_promptly s : sender_alive s = false -> w s <> WExited ->
  exists es, (length es <= 2)%nat /\ Forall (fun e => e <> Tick) es /\ exists s', wrun s es = Some s' /\ w s' = WExited.
Proof.
  intros Ha Hw. destruct s as [ws a]. cbn in *. subst a. destruct ws as [t| |]; [| |congruence].
  - exists [ObserveClosed]. split; [cbn; lia|]. split; [constructor; [discriminate|constructor]|]. eexists. split; reflexivity.
  - exists [WorkDone 1000; ObserveClosed]. split; [cbn; lia|]. split; [repeat constructor; discriminate|]. eexists. split; reflexivity.
Qed.

Lemma wstep_stays s e s' : sender_alive s = true /\ w s <> WExited -> e <> DropSender -> wstep s e = Some s' ->
  sender_alive s' = true /\ w s' <> WExited.
Proof.
  intros [Ha Hw] He E. destruct s as [ws a]. cbn in Ha. subst a. destruct e; cbn in E.
  - destruct ws as [[|n]| |]; inversion E; subst; cbn; split; auto; discriminate.
  - destruct ws; inversion E; subst; cbn; split; auto; discriminate.
  - congruence.
  - destruct ws; discriminate.
Qed.

(* and it cannot exit while the store object is alive *)
Theorem worker_stays_while_open : forall es s s', sender_alive s = true -> Forall (fun e => e <> DropSender) es ->
  w s <> WExited -> wrun s es = Some s' -> w s' <> WExited.
Proof.
  intros es s s' Ha Hes Hw E.
  exact (proj2 (orun_inv_Forall wstep _ _ wstep_stays es s s' (conj Ha Hw) Hes E)).
Qed.
