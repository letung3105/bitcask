(* Sys/Shutdown.v — graceful shutdown of src/net/server.rs + src/shutdown.rs as a transition system.
     Server::run:   select { listen() | shutdown }  then drop(notify_shutdown); drop(shutdown_complete_tx);
                    shutdown_complete_rx.recv().await          (returns when every handler dropped its sender)
     Handler::run:  while !shutdown.is_shutdown() {
                      let f = select { read_frame() | shutdown.recv() => return };     (HWait)
                      cmd.apply(...)  = store operation on a blocking thread, awaited   (HExec)
                                        then write_frame(reply) + flush                 (HReply)
                    }
   A handler can only leave at the select (or by an error), never inside apply: commands are not
   interruptible.  [reading i = false] models a client that does not read: its handler cannot finish
   writing a reply (the known finding D11).
   Proved: replies never run ahead of the store and an ended handler has replied to everything it
   applied; once the signal is out and no handler is blocked in a write the server can return with no
   client action; while a client with a reply outstanding does not read it does not. *)
From Coq Require Import List Arith Lia Bool.
Import ListNotations.
From BC Require Import Base.Run.

Inductive hstate :=
| HWait (pending : nat)     (* at the select; [pending] complete requests are available *)
| HExec (pending : nat)     (* store operation running *)
| HReply (pending : nat)    (* operation applied, reply being written *)
| HEnded.

Record conn := mkConn { hs : hstate; applied : nat; replied : nat; reading : bool }.
Inductive phase := Running | Draining | Returned.
Record sys := mkSys { ph : phase; conns : list conn }.

Inductive event :=
| ClientSends (i : nat)        (* one more complete request arrives on connection i *)
| StartCmd (i : nat)           (* select takes read_frame *)
| OpDone (i : nat)             (* the store operation returns *)
| ReplyDone (i : nat)          (* the reply is written and flushed: needs a reading client *)
| Fire                         (* the shutdown future completes *)
| Observe (i : nat)            (* select takes shutdown.recv(): the handler returns *)
| ClientCloses (i : nat)       (* EOF with nothing buffered: the handler returns *)
| ClientReads (i : nat)        (* the client starts reading *)
| Return.                      (* Server::run returns *)

Fixpoint upd (l : list conn) (i : nat) (c : conn) : list conn :=
  match l, i with
  | [], _ => []
  | _ :: l', O => c :: l'
  | x :: l', S j => x :: upd l' j c
  end.

Definition all_ended (l : list conn) : bool := forallb (fun c => match hs c with HEnded => true | _ => false end) l.

Definition step (s : sys) (e : event) : option sys :=
  let withc i f := match nth_error (conns s) i with
                   | Some c => match f c with Some c' => Some (mkSys (ph s) (upd (conns s) i c')) | None => None end
                   | None => None
                   end in
  match e with
  | ClientSends i => withc i (fun c => match hs c with
                                        | HWait p => Some (mkConn (HWait (S p)) (applied c) (replied c) (reading c))
                                        | HExec p => Some (mkConn (HExec (S p)) (applied c) (replied c) (reading c))
                                        | HReply p => Some (mkConn (HReply (S p)) (applied c) (replied c) (reading c))
                                        | HEnded => None end)
  | StartCmd i => withc i (fun c => match hs c with HWait (S p) => Some (mkConn (HExec p) (applied c) (replied c) (reading c)) | _ => None end)
  | OpDone i => withc i (fun c => match hs c with HExec p => Some (mkConn (HReply p) (S (applied c)) (replied c) (reading c)) | _ => None end)
  | ReplyDone i => withc i (fun c => match hs c with
                                      | HReply p => if reading c then Some (mkConn (HWait p) (applied c) (S (replied c)) true) else None
                                      | _ => None end)
  | Fire => match ph s with Running => Some (mkSys Draining (conns s)) | _ => None end
  | Observe i => match ph s with
                 | Running => None
                 | _ => withc i (fun c => match hs c with HWait _ => Some (mkConn HEnded (applied c) (replied c) (reading c)) | _ => None end)
                 end
  | ClientCloses i => withc i (fun c => match hs c with HWait O => Some (mkConn HEnded (applied c) (replied c) (reading c)) | _ => None end)
  | ClientReads i => withc i (fun c => Some (mkConn (hs c) (applied c) (replied c) true))
  | Return => match ph s with Draining => if all_ended (conns s) then Some (mkSys Returned (conns s)) else None | _ => None end
  end.

Fixpoint run (s : sys) (es : list event) : option sys :=
  match es with [] => Some s | e :: es' => match step s e with Some s' => run s' es' | None => None end end.

(* [replied] counts COMPLETE replies: the only event that makes bytes visible to the client is
   ReplyDone, which appends one whole reply.  A handler at the select, or ended, has replied to
   every operation it applied; in between, at most one reply is outstanding. *)
Definition conn_ok (c : conn) : Prop :=
  match hs c with
  | HWait _ | HEnded | HExec _ => replied c = applied c
  | HReply _ => applied c = S (replied c)
  end.
Definition sys_ok (s : sys) : Prop := Forall conn_ok (conns s).

Lemma upd_ok l i c : Forall conn_ok l -> conn_ok c -> Forall conn_ok (upd l i c).
Proof.
  revert i. induction l as [|x l IH]; intros i Hl Hc; cbn [upd]; [constructor|].
  inversion Hl; subst. destruct i; constructor; auto.
Qed.

Lemma Forall_nth_error (P : conn -> Prop) l i c : Forall P l -> nth_error l i = Some c -> P c.
Proof. intros H E. rewrite Forall_forall in H. apply H. eapply nth_error_In; exact E. Qed.

(* [step] read per connection: an event that addresses a connection applies [cstep] to it and leaves
   the rest and the phase alone; the two events without a target leave the connections alone *)
Definition target (e : event) : option nat :=
  match e with
  | ClientSends i | StartCmd i | OpDone i | ReplyDone i | Observe i | ClientCloses i | ClientReads i => Some i
  | Fire | Return => None
  end.

Definition cstep (e : event) (c : conn) : option conn :=
  match e with
  | ClientSends _ => match hs c with
                     | HWait p => Some (mkConn (HWait (S p)) (applied c) (replied c) (reading c))
                     | HExec p => Some (mkConn (HExec (S p)) (applied c) (replied c) (reading c))
                     | HReply p => Some (mkConn (HReply (S p)) (applied c) (replied c) (reading c))
                     | HEnded => None end
  | StartCmd _ => match hs c with HWait (S p) => Some (mkConn (HExec p) (applied c) (replied c) (reading c)) | _ => None end
  | OpDone _ => match hs c with HExec p => Some (mkConn (HReply p) (S (applied c)) (replied c) (reading c)) | _ => None end
  | ReplyDone _ => match hs c with
                   | HReply p => if reading c then Some (mkConn (HWait p) (applied c) (S (replied c)) true) else None
                   | _ => None end
  | Observe _ => match hs c with HWait _ => Some (mkConn HEnded (applied c) (replied c) (reading c)) | _ => None end
  | ClientCloses _ => match hs c with HWait O => Some (mkConn HEnded (applied c) (replied c) (reading c)) | _ => None end
  | ClientReads _ => Some (mkConn (hs c) (applied c) (replied c) true)
  | Fire | Return => None
  end.

Lemma at_conn_inv p l i (f : conn -> option conn) s' :
  match nth_error l i with
  | Some c => match f c with Some c' => Some (mkSys p (upd l i c')) | None => None end
  | None => None
  end = Some s' ->
  exists c c', nth_error l i = Some c /\ f c = Some c' /\ s' = mkSys p (upd l i c').
Proof.
  destruct (nth_error l i) as [c|]; [|discriminate]. destruct (f c) as [c'|] eqn:Ec; [|discriminate].
  intros [= <-]. exists c, c'. auto.
Qed.

Lemma step_conn s e s' : step s e = Some s' ->
  match target e with
  | Some i => exists c c', nth_error (conns s) i = Some c /\ cstep e c = Some c' /\ s' = mkSys (ph s) (upd (conns s) i c')
  | None => conns s' = conns s /\ (ph s' = Returned -> all_ended (conns s) = true)
  end.
Proof.
  unfold step. destruct e as [i|i|i|i| |i|i|i|]; cbn [target]; try exact (at_conn_inv _ _ _ _ _); cbv beta zeta.
  - destruct (ph s); intros [= <-]. split; [reflexivity|discriminate].
  - destruct (ph s); [intros [=]|exact (at_conn_inv _ _ _ _ _)..].
  - exact (at_conn_inv _ _ _ (cstep (ClientReads i)) _).
  - destruct (ph s), (all_ended (conns s)); intros [= <-]. now split.
Qed.

Lemma cstep_ok e c c' : conn_ok c -> cstep e c = Some c' -> conn_ok c'.
Proof.
  unfold conn_ok. intros H E. destruct e; cbn [cstep] in E.
  - destruct (hs c); inversion E; subst; exact H.
  - destruct (hs c) as [[|q]|q|q|]; inversion E; subst; exact H.
  - destruct (hs c); inversion E; subst; cbn. congruence.
  - destruct (hs c), (reading c); inversion E; subst; cbn. congruence.
  - discriminate.
  - destruct (hs c); inversion E; subst; exact H.
  - destruct (hs c) as [[|q]|q|q|]; inversion E; subst; exact H.
  - inversion E; subst. exact H.
  - discriminate.
Qed.

Lemma step_ok s e s' : sys_ok s -> step s e = Some s' -> sys_ok s'.
Proof.
  unfold sys_ok. intros H E. apply step_conn in E. destruct (target e) as [i|].
  - destruct E as (c & c' & En & Ec & ->). apply upd_ok; [exact H|]. exact (cstep_ok e c c' (Forall_nth_error _ _ _ _ H En) Ec).
  - destruct E as [-> _]. exact H.
Qed.

Theorem run_ok : forall es s s', sys_ok s -> run s es = Some s' -> sys_ok s'.
Proof. exact (orun_inv_all step sys_ok step_ok). Qed.

Lemma reachable_conn_ok es s s' c : sys_ok s -> run s es = Some s' -> In c (conns s') -> conn_ok c.
Proof. intros H E. revert c. apply Forall_forall. exact (run_ok es s s' H E). Qed.

(* every reply a client has received belongs to an operation the store has already applied *)
Theorem replies_follow_store es s s' c : sys_ok s -> run s es = Some s' -> In c (conns s') -> replied c <= applied c.
Proof.
  intros H E Hin. pose proof (reachable_conn_ok es s s' c H E Hin) as Hok. unfold conn_ok in Hok. destruct (hs c); lia.
Qed.

(* a handler that has ended has written a whole reply for everything it applied: no torn reply *)
Theorem ended_means_all_replied es s s' c : sys_ok s -> run s es = Some s' -> In c (conns s') -> hs c = HEnded ->
  replied c = applied c.
Proof.
  intros H E Hin Hend. pose proof (reachable_conn_ok es s s' c H E Hin) as Hok. unfold conn_ok in Hok. rewrite Hend in Hok. exact Hok.
Qed.

(* the events one handler needs to wind down once the signal is out: finish the command it is in
   (at most two events), then observe the signal *)
Definition wind_down (i : nat) (c : conn) : list event :=
  match hs c with
  | HWait _ => [Observe i]
  | HExec _ => [OpDone i; ReplyDone i; Observe i]
  | HReply _ => [ReplyDone i; Observe i]
  | HEnded => []
  end.

Definition unblocked (c : conn) : Prop := match hs c with HExec _ | HReply _ => reading c = true | _ => True end.

Lemma nth_upd_same l i c x : nth_error l i = Some x -> nth_error (upd l i c) i = Some c.
Proof. revert i. induction l as [|y l IH]; intros [|i]; cbn; try discriminate; auto. Qed.
Lemma nth_upd_other l i j c : i <> j -> nth_error (upd l i c) j = nth_error l j.
Proof. revert i j. induction l as [|y l IH]; intros [|i] [|j] H; cbn; auto; try congruence; try (apply IH; congruence). Qed.

Lemma nth_middle_error done (c : conn) l : nth_error (done ++ c :: l) (length done) = Some c.
Proof. rewrite nth_error_app2 by lia. rewrite Nat.sub_diag. reflexivity. Qed.
Lemma upd_middle done c l c' : upd (done ++ c :: l) (length done) c' = done ++ c' :: l.
Proof. induction done as [|d done IH]; cbn; [reflexivity|]. rewrite IH. reflexivity. Qed.

Lemma step_opdone p done c l q : hs c = HExec q ->
  step (mkSys p (done ++ c :: l)) (OpDone (length done)) =
  Some (mkSys p (done ++ mkConn (HReply q) (S (applied c)) (replied c) (reading c) :: l)).
Proof. intros Eh. unfold step. cbn [ph conns]. rewrite nth_middle_error, Eh, upd_middle. reflexivity. Qed.
Lemma step_replydone p done c l q : hs c = HReply q -> reading c = true ->
  step (mkSys p (done ++ c :: l)) (ReplyDone (length done)) =
  Some (mkSys p (done ++ mkConn (HWait q) (applied c) (S (replied c)) true :: l)).
Proof. intros Eh Hr. unfold step. cbn [ph conns]. rewrite nth_middle_error, Eh, Hr, upd_middle. reflexivity. Qed.
Lemma step_observe done c l q : hs c = HWait q ->
  step (mkSys Draining (done ++ c :: l)) (Observe (length done)) =
  Some (mkSys Draining (done ++ mkConn HEnded (applied c) (replied c) (reading c) :: l)).
Proof. intros Eh. unfold step. cbn [ph conns]. rewrite nth_middle_error, Eh, upd_middle. reflexivity. Qed.

Lemma wind_down_one done c l : unblocked c ->
  exists c', run (mkSys Draining (done ++ c :: l)) (wind_down (length done) c) = Some (mkSys Draining (done ++ c' :: l)) /\
             hs c' = HEnded.
Proof.
  unfold wind_down, unblocked. intros Hu. destruct (hs c) as [q|q|q|] eqn:Eh; cbn [run].
  - eexists. rewrite (step_observe done c l q Eh). split; reflexivity.
  - eexists. rewrite (step_opdone Draining done c l q Eh).
    erewrite step_replydone; [|reflexivity|exact Hu]. erewrite step_observe by reflexivity. split; reflexivity.
  - eexists. rewrite (step_replydone Draining done c l q Eh Hu). erewrite step_observe by reflexivity. split; reflexivity.
  - exists c. split; [reflexivity|exact Eh].
Qed.

Lemma run_app s es1 es2 : run s (es1 ++ es2) = match run s es1 with Some s' => run s' es2 | None => None end.
Proof. exact (orun_app step es1 es2 s). Qed.

Lemma all_ended_iff l : all_ended l = true <-> Forall (fun c => hs c = HEnded) l.
Proof.
  unfold all_ended. rewrite forallb_forall, Forall_forall.
  split; intros H c Hc; specialize (H c Hc); destruct (hs c); congruence.
Qed.

(* once the signal is out and no client keeps a handler blocked in a write, the server CAN return
   after at most three events per connection plus one: no client action is needed, whatever the
   clients are doing (idle, mid-frame = nothing pending, mid-command) *)
Theorem can_always_return : forall l done, Forall unblocked l ->
  Forall (fun c => hs c = HEnded) done ->
  exists es, length es <= 3 * length l + 1 /\
    exists l', run (mkSys Draining (done ++ l)) es = Some (mkSys Returned (done ++ l')) /\ Forall (fun c => hs c = HEnded) l'.
Proof.
  induction l as [|c l IH]; intros done Hu Hd.
  - exists [Return]. split; [cbn; lia|]. exists []. cbn [run step ph conns].
    rewrite app_nil_r, (proj2 (all_ended_iff done) Hd). split; [reflexivity|constructor].
  - inversion Hu as [|? ? Huc Hul]; subst.
    destruct (wind_down_one done c l Huc) as (c' & Hrun & Hend).
    destruct (IH (done ++ [c']) Hul) as (es & Hlen & l' & Hrun' & Hl').
    { apply Forall_app. split; [exact Hd|constructor; [exact Hend|constructor]]. }
    rewrite <- !app_assoc in Hrun'. cbn [app] in Hrun'.
    exists (wind_down (length done) c ++ es). split.
    + rewrite app_length. cbn [length]. assert (length (wind_down (length done) c) <= 3) by (unfold wind_down; destruct (hs c); cbn; lia). lia.
    + exists (c' :: l'). rewrite run_app, Hrun, Hrun'. split; [reflexivity|constructor; assumption].
Qed.

(* the known finding: a handler blocked writing to a client that never reads keeps run from
   returning, for every continuation in which that client does not start reading *)
Definition blocked (c : conn) : Prop := exists p, hs c = HReply p /\ reading c = false.

Definition no_read_of (i : nat) (e : event) : Prop := e <> ClientReads i.

Lemma upd_nth_same_other l i j c x : nth_error l j = Some x -> i <> j -> nth_error (upd l i c) j = Some x.
Proof. intros H Hne. rewrite nth_upd_other by exact Hne. exact H. Qed.

Lemma cstep_blocked e i c c' : target e = Some i -> no_read_of i e -> blocked c -> cstep e c = Some c' -> blocked c'.
Proof.
  intros Ht Hne (p & Hh & Hr) E. destruct e; cbn [cstep] in E; try discriminate; rewrite Hh in E; try discriminate.
  - injection E as <-. exists (S p). split; [reflexivity|exact Hr].
  - rewrite Hr in E. discriminate.
  - injection Ht as ->. now elim Hne.
Qed.

Definition stuck (i : nat) (s : sys) : Prop := ph s <> Returned /\ exists c, nth_error (conns s) i = Some c /\ blocked c.

Lemma step_keeps_blocked i s e s' : stuck i s -> no_read_of i e -> step s e = Some s' -> stuck i s'.
Proof.
  intros (Hph & c & En & Hb) Hne E. apply step_conn in E. destruct (target e) as [j|] eqn:Et.
  - destruct E as (x & x' & Ej & Ex & ->). split; [exact Hph|]. cbn [conns]. destruct (Nat.eq_dec j i) as [->|Hj].
    + exists x'. split; [exact (nth_upd_same _ _ _ _ En)|]. rewrite En in Ej. injection Ej as <-.
      exact (cstep_blocked e i c x' Et Hne Hb Ex).
    + exists c. split; [exact (upd_nth_same_other _ _ _ _ _ En Hj)|exact Hb].
  - destruct E as [Ec Hret]. unfold stuck. rewrite Ec. split; [|eauto].
    intros Hr. apply Hret, all_ended_iff in Hr.
    destruct Hb as (p & Hh & _). rewrite (Forall_nth_error _ _ _ _ Hr En) in Hh. discriminate.
Qed.

Theorem blocked_never_returns : forall es s s' i, stuck i s -> Forall (no_read_of i) es -> run s es = Some s' -> stuck i s'.
Proof. intros es s s' i. exact (orun_inv_Forall step (no_read_of i) (stuck i) (step_keeps_blocked i) es s s'). Qed.
