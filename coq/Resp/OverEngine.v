(* Resp/OverEngine.v — the handler over the storage engine.  Resp/Handler.v runs the per-connection loop over an
   abstract map; Store/Theorems.v proves the engine to be that map.  Here the two are composed: the same loop
   running over the engine model (one get / set per command, one delete per key of a DEL, as the code does)
   writes exactly the bytes the loop over the map writes, and ends in an invariant engine state denoting the
   same map ([handle_sim]; from the wire, [handler_over_engine], and on arbitrary input, [hostile_over_engine]).
   Then: what the loop does to the engine is a script of the engine, so the server is crash safe
   ([server_crash_safe]); merge passes of the background task between commands change no answer
   ([handle_bg_sim]); a clean restart keeps the map for the next connection ([two_lives]). *)
From BC Require Import Base.Bytes Resp.Frame Resp.Conn Resp.Handler Resp.HandlerProofs.
From BC Require Import Store.Codec Store.Engine Store.Log Store.Inv Store.Refine Store.Merge Store.Theorems.
From BC Require Store.Crash Store.CrashScript.
From Coq Require Import ZArith List Lia.
Import ListNotations.

Definition del_e (c : cfg) (s : st) (k : bytes) : st * bool :=
  match step c s (ODel k) with
  | (s', VBool b, _) => (s', b)
  | (s', _, _) => (s', false)
  end.

Fixpoint del_all_e (c : cfg) (s : st) (ks : list bytes) (count : Z) : st * Z :=
  match ks with
  | [] => (s, count)
  | k :: ks' => let '(s', b) := del_e c s k in del_all_e c s' ks' (if b then (count + 1)%Z else count)
  end.

Definition apply_cmd_e (c : cfg) (s : st) (cm : cmd) : st * frame :=
  match cm with
  | CGet k => (s, match step c s (OGet k) with (_, VVal (Some v), _) => Bulk v | _ => Null end)
  | CSet k v => (fst (fst (step c s (OSet k v))), Simple s_OK)
  | CDel ks => let '(s', n) := del_all_e c s ks 0%Z in (s', Integer n)
  end.

Fixpoint handle_e (c : cfg) (s : st) (rs : list rres) (out : bytes) : bytes * st * term :=
  match rs with
  | [] => (out, s, TPanic)
  | RFrame f :: rs' =>
    match cmd_of f with
    | inr e => (out, s, TCmdErr e)
    | inl cm =>
      let '(s', reply) := apply_cmd_e c s cm in
      match enc reply with
      | Ok b => handle_e c s' rs' (out ++ b)
      | _ => (out, s', TPanic)
      end
    end
  | RClean :: _ => (out, s, TClosed)
  | RReset :: _ => (out, s, TReset)
  | RErr e :: _ => (out, s, TFrameErr e)
  | _ :: _ => (out, s, TPanic)
  end.

Definition denotes (s : st) (m : kv) : Prop := Inv s /\ forall k, kv_get m k = abs s k.

Lemma del_all_sim c : forall ks s m n, denotes s m ->
  let '(s', n1) := del_all_e c s ks n in let '(m', n2) := del_all m ks n in denotes s' m' /\ n1 = n2.
Proof.
  induction ks as [|k ks IH]; intros s m n [HI Hm]; cbn [del_all_e del_all]; [split; [split; assumption|reflexivity]|].
  unfold del_e. pose proof (step_refines c s (ODel k) HI I) as H. destruct (step c s (ODel k)) as [[s1 r] t].
  destruct H as (HI1 & Hr & Hab). cbn [spec_step fst snd] in *. subst r. rewrite Hm.
  destruct (abs s k) as [v|] eqn:Ek.
  - apply IH. split; [exact HI1|]. intros k'. rewrite kv_get_del, Hab, Hm. reflexivity.
  - apply IH. split; [exact HI1|]. intros k'. rewrite Hab, Hm. destruct (beq k' k) eqn:E; [|reflexivity].
    apply beq_eq in E. subst k'. exact Ek.
Qed.

Lemma apply_sim c s m cm : denotes s m ->
  let '(s', f) := apply_cmd_e c s cm in let '(m', f') := apply_cmd m cm in denotes s' m' /\ f = f'.
Proof.
  intros [HI Hm]. destruct cm as [k|k v|ks]; cbn [apply_cmd_e apply_cmd].
  - pose proof (step_refines c s (OGet k) HI I) as H. destruct (step c s (OGet k)) as [[s1 r] t].
    destruct H as (_ & Hr & _). cbn [spec_step snd] in Hr. subst r. rewrite Hm. split; [split; assumption|]. destruct (abs s k); reflexivity.
  - pose proof (step_refines c s (OSet k v) HI I) as H. destruct (step c s (OSet k v)) as [[s1 r] t]. cbn [fst].
    destruct H as (HI1 & _ & Hab). cbn [spec_step fst] in Hab. split; [|reflexivity]. split; [exact HI1|].
    intros k'. rewrite kv_get_set, Hab, Hm. reflexivity.
  - pose proof (del_all_sim c ks s m 0%Z (conj HI Hm)) as H. destruct (del_all_e c s ks 0) as [s' n1]. destruct (del_all m ks 0) as [m' n2].
    destruct H as [Hd ->]. split; [exact Hd|reflexivity].
Qed.

Theorem handle_sim c : forall rs s m out, denotes s m ->
  let '(o1, s', t1) := handle_e c s rs out in let '(o2, m', t2) := handle m rs out in
  o1 = o2 /\ t1 = t2 /\ denotes s' m'.
Proof.
  induction rs as [|r rs IH]; intros s m out Hd; cbn [handle_e handle]; [auto|].
  destruct r as [f| | |e| | |]; try (split; [reflexivity|split; [reflexivity|exact Hd]]).
  destruct (cmd_of f) as [cm|e]; [|split; [reflexivity|split; [reflexivity|exact Hd]]].
  pose proof (apply_sim c s m cm Hd) as H. destruct (apply_cmd_e c s cm) as [s1 f1]. destruct (apply_cmd m cm) as [m1 f2].
  destruct H as [Hd1 ->]. destruct (enc f2); try (split; [reflexivity|split; [reflexivity|exact Hd1]]). apply IH. exact Hd1.
Qed.

Lemma denotes_init : denotes init [].
Proof.
  split; [exact (proj1 init_inv)|]. exact abs_init.
Qed.

Lemma handler_over_engine_from c s m rs es segs : denotes s m -> Forall (fun r => wf_req r = true) rs ->
  Forall2 (fun r e => enc (frame_of_req r) = Ok e) rs es -> concat segs = concat es ->
  let '(out, s', t) := handle_e c s (read_all (fixed Release) segs []) [] in
  out = fst (spec_out m rs) /\ t = TClosed /\ denotes s' (snd (spec_out m rs)).
Proof.
  intros Hd Hwf He Hc. pose proof (handler_replies rs es segs m Hwf He Hc) as H. unfold handler_from in H.
  pose proof (handle_sim c (read_all (fixed Release) segs []) s m [] Hd) as Hs.
  destruct (handle_e c s (read_all (fixed Release) segs []) []) as [[o1 s'] t1]. rewrite H in Hs. destruct Hs as (-> & -> & Hd'). auto.
Qed.

(* End to end: well-formed requests, cut into socket reads in any way, handled over the ENGINE started on an
   empty directory: the bytes written are the map's replies in order, the connection ends cleanly, and the engine
   ends in an invariant state that denotes the map the requests produce. *)
Theorem handler_over_engine c rs es segs : Forall (fun r => wf_req r = true) rs ->
  Forall2 (fun r e => enc (frame_of_req r) = Ok e) rs es -> concat segs = concat es ->
  let '(out, s', t) := handle_e c init (read_all (fixed Release) segs []) [] in
  out = fst (spec_out [] rs) /\ t = TClosed /\ denotes s' (snd (spec_out [] rs)).
Proof. apply handler_over_engine_from. exact denotes_init. Qed.

(* ... and on ARBITRARY input (C10): whatever bytes arrive in whatever pieces, the loop over the engine does not
   panic, and the engine ends in an invariant state denoting the map changed by exactly the commands the command
   parser accepted before the first rejected frame. *)
Theorem hostile_over_engine c segs :
  let '(out, s', t) := handle_e c init (read_all (fixed Release) segs []) [] in
  t <> TPanic /\ denotes s' (apply_all [] (accepted (read_all (fixed Release) segs []))).
Proof.
  pose proof (handle_sim c (read_all (fixed Release) segs []) init [] [] denotes_init) as Hs.
  pose proof (handler_total [] segs) as Ht. unfold handler_from in Ht.
  pose proof (handler_store_effect (read_all (fixed Release) segs []) [] []) as He.
  destruct (handle_e c init (read_all (fixed Release) segs []) []) as [[o1 s'] t1].
  destruct (handle [] (read_all (fixed Release) segs []) []) as [[o2 m'] t2]. cbn [fst snd] in *.
  destruct Hs as (_ & -> & Hd). split; [exact Ht|]. rewrite <- He. exact Hd.
Qed.

(* ---- the loop is a script of the engine ----
   What the handler does to the engine is a script of sets, gets and deletes (one delete per key of a DEL); so every
   theorem about scripts (bytes on disk, crash safety, power-loss safety, file discipline) holds of the server. *)
Definition ops_of_cmd (cm : cmd) : list op :=
  match cm with CGet k => [OGet k] | CSet k v => [OSet k v] | CDel ks => map ODel ks end.

Lemma run_app_state c : forall a s b, fst (fst (run c s (a ++ b))) = fst (fst (run c (fst (fst (run c s a))) b)).
Proof.
  intros a s b. rewrite run_app. destruct (run c s a) as [[s1 r1] t1]. cbn [fst]. destruct (run c s1 b) as [[s2 r2] t2]. reflexivity.
Qed.
Lemma run_app_trace c : forall a s b, snd (run c s (a ++ b)) = snd (run c s a) ++ snd (run c (fst (fst (run c s a))) b).
Proof.
  intros a s b. rewrite run_app. destruct (run c s a) as [[s1 r1] t1]. cbn [fst snd]. destruct (run c s1 b) as [[s2 r2] t2]. reflexivity.
Qed.

Lemma del_all_script c : forall ks s n, fst (del_all_e c s ks n) = fst (fst (run c s (map ODel ks))).
Proof.
  induction ks as [|k ks IH]; intros s n; cbn [del_all_e map run]; [reflexivity|].
  unfold del_e. destruct (step c s (ODel k)) as [[s1 r] t]. specialize (IH s1).
  destruct (run c s1 (map ODel ks)) as [[s2 rs] ts]. cbn [fst] in *. destruct r; apply IH.
Qed.

Lemma apply_script c s cm : fst (apply_cmd_e c s cm) = fst (fst (run c s (ops_of_cmd cm))).
Proof.
  destruct cm as [k|k v|ks]; cbn [apply_cmd_e ops_of_cmd fst].
  - cbn [run]. destruct (step c s (OGet k)) as [[s1 r] t] eqn:E. cbn [fst].
    change s1 with (fst (fst (s1, r, t))). rewrite <- E. cbn [step]. destruct (get s k); reflexivity.
  - cbn [run]. destruct (step c s (OSet k v)) as [[s1 r] t]. reflexivity.
  - pose proof (del_all_script c ks s 0%Z) as H. destruct (del_all_e c s ks 0) as [s' n]. exact H.
Qed.

(* the commands executed: those accepted before the first rejected frame *)
Definition script_of (rs : list rres) : list op := concat (map ops_of_cmd (accepted rs)).

(* whatever the engine answers, the reply is a bulk string, a null, OK or an integer: it has an encoding *)
Lemma reply_e_encodes c s cm : exists b, enc (snd (apply_cmd_e c s cm)) = Ok b.
Proof.
  destruct cm as [k|k v|ks]; cbn [apply_cmd_e snd].
  - destruct (step c s (OGet k)) as [[s1 r] t]. destruct r as [|[v|]| | |]; eexists; reflexivity.
  - eexists. reflexivity.
  - destruct (del_all_e c s ks 0). eexists. reflexivity.
Qed.

(* in any engine state, invariant or not *)
Lemma handle_runs_script c : forall rs s out, snd (fst (handle_e c s rs out)) = fst (fst (run c s (script_of rs))).
Proof.
  induction rs as [|r rs IH]; intros s out; cbn [handle_e]; [reflexivity|].
  destruct r as [f| | |e| | |]; try reflexivity. unfold script_of. cbn [accepted].
  destruct (cmd_of f) as [cm|e]; [|reflexivity]. cbn [map concat].
  pose proof (apply_script c s cm) as Ha. destruct (reply_e_encodes c s cm) as (b & Eb).
  destruct (apply_cmd_e c s cm) as [s1 reply]. cbn [fst snd] in *. rewrite Eb, run_app_state, <- Ha. apply IH.
Qed.

Theorem handle_is_script c : forall rs s m out, denotes s m ->
  snd (fst (handle_e c s rs out)) = fst (fst (run c s (script_of rs))).
Proof. intros rs s m out _. apply handle_runs_script. Qed.

Lemma script_no_merge rs : Store.CrashScript.no_merge (script_of rs).
Proof.
  intros o Hin. unfold script_of in Hin. apply in_concat in Hin as (l & Hl & Ho). apply in_map_iff in Hl as (cm & <- & _).
  destruct cm as [k|k v|ks]; cbn [ops_of_cmd] in Ho.
  - destruct Ho as [<-|[]]. reflexivity.
  - destruct Ho as [<-|[]]. reflexivity.
  - apply in_map_iff in Ho as (k & <- & _). reflexivity.
Qed.

(* The server is crash safe: whatever bytes a connection sends, in whatever pieces, every crash image of the system
   calls its commands cause (any call boundary, the last write cut at any byte) opens to the map after some prefix
   of the engine operations those commands consist of. *)
Theorem server_crash_safe c segs s0 :
  let ops := script_of (read_all (fixed Release) segs []) in
  Store.Crash.rep s0 (s_dir init) -> Store.Crash.trace_wf (snd (run c init ops)) ->
  forall img, Store.Crash.image_of s0 (snd (run c init ops)) img ->
    exists n, (n <= length ops)%nat /\ Store.CrashScript.img_ok img (abs (Store.CrashScript.state_after c init ops n)).
Proof.
  intros ops Hrep Hwf. apply Store.CrashScript.crash_safe_no_merge; [apply script_no_merge|exact Hrep|exact Hwf].
Qed.

(* ---- with merge passes of the background task in between ----
   The background task may run a merge pass between any two commands (the writer mutex serialises them).  Whatever
   passes run, wherever, in whatever iteration order the index hands out, a connection is answered exactly as
   without them. *)
Inductive sev := SFrame (r : rres) | SMerge (ord : list bytes).

Fixpoint frames_of (evs : list sev) : list rres :=
  match evs with [] => [] | SFrame r :: evs' => r :: frames_of evs' | SMerge _ :: evs' => frames_of evs' end.

Fixpoint handle_bg (c : cfg) (s : st) (evs : list sev) (out : bytes) : bytes * st * term :=
  match evs with
  | [] => (out, s, TPanic)
  | SMerge ord :: evs' => handle_bg c (fst (fst (step c s (OMerge ord)))) evs' out
  | SFrame (RFrame f) :: evs' =>
    match cmd_of f with
    | inr e => (out, s, TCmdErr e)
    | inl cm =>
      let '(s', reply) := apply_cmd_e c s cm in
      match enc reply with
      | Ok b => handle_bg c s' evs' (out ++ b)
      | _ => (out, s', TPanic)
      end
    end
  | SFrame RClean :: _ => (out, s, TClosed)
  | SFrame RReset :: _ => (out, s, TReset)
  | SFrame (RErr e) :: _ => (out, s, TFrameErr e)
  | SFrame _ :: _ => (out, s, TPanic)
  end.

(* every pass is handed an iteration order that visits each index entry of a selected file once *)
Fixpoint bg_ready (c : cfg) (s : st) (evs : list sev) : Prop :=
  match evs with
  | [] => True
  | SMerge ord :: evs' => merge_ready c s ord /\ bg_ready c (fst (fst (step c s (OMerge ord)))) evs'
  | SFrame (RFrame f) :: evs' =>
    match cmd_of f with
    | inr _ => True
    | inl cm => bg_ready c (fst (apply_cmd_e c s cm)) evs'
    end
  | SFrame _ :: _ => True
  end.

Theorem handle_bg_sim c : forall evs s m out, denotes s m -> bg_ready c s evs ->
  let '(o1, s', t1) := handle_bg c s evs out in let '(o2, m', t2) := handle m (frames_of evs) out in
  o1 = o2 /\ t1 = t2 /\ denotes s' m'.
Proof.
  induction evs as [|ev evs IH]; intros s m out Hd Hr; cbn [handle_bg frames_of handle bg_ready] in *; [auto|].
  destruct ev as [r|ord].
  - destruct r as [f| | |e| | |]; cbn [handle]; try (split; [reflexivity|split; [reflexivity|exact Hd]]).
    destruct (cmd_of f) as [cm|e]; [|split; [reflexivity|split; [reflexivity|exact Hd]]].
    pose proof (apply_sim c s m cm Hd) as H. destruct (apply_cmd_e c s cm) as [s1 f1]. destruct (apply_cmd m cm) as [m1 f2].
    destruct H as [Hd1 ->]. cbn [fst] in Hr.
    destruct (enc f2); try (split; [reflexivity|split; [reflexivity|exact Hd1]]). apply IH; assumption.
  - destruct Hr as [Hm Hr]. destruct Hd as [HI Hab].
    pose proof (step_refines c s (OMerge ord) HI Hm) as H. destruct (step c s (OMerge ord)) as [[s1 r] t]. cbn [fst] in *.
    destruct H as (HI1 & _ & Hab1). cbn [spec_step fst] in Hab1. apply IH; [|exact Hr].
    split; [exact HI1|]. intros k. rewrite Hab, Hab1. reflexivity.
Qed.

(* ---- across a restart ---- a clean restart of the server keeps the map: the next connection is answered from it *)
Theorem restart_keeps_map s m : denotes s m -> exists s' t, reopen s = ROk (s', tt, t) /\ denotes s' m.
Proof.
  intros [HI Hm]. destruct (reopen_ok s HI) as (s' & t & Hr & HI' & Hlog & _). exists s', t. split; [exact Hr|].
  split; [exact HI'|]. intros k. rewrite Hm. symmetry. exact (abs_log s s' Hlog k).
Qed.

Theorem two_lives c segs1 rs2 es2 segs2 : Forall (fun r => wf_req r = true) rs2 ->
  Forall2 (fun r e => enc (frame_of_req r) = Ok e) rs2 es2 -> concat segs2 = concat es2 ->
  let '(_, s1, _) := handle_e c init (read_all (fixed Release) segs1 []) [] in
  let m1 := apply_all [] (accepted (read_all (fixed Release) segs1 [])) in
  exists s1' t, reopen s1 = ROk (s1', tt, t) /\
    let '(out2, s2, t2) := handle_e c s1' (read_all (fixed Release) segs2 []) [] in
    out2 = fst (spec_out m1 rs2) /\ t2 = TClosed /\ denotes s2 (snd (spec_out m1 rs2)).
Proof.
  intros Hwf He Hc. pose proof (hostile_over_engine c segs1) as H1.
  destruct (handle_e c init (read_all (fixed Release) segs1 []) []) as [[o1 s1] t1]. destruct H1 as (_ & Hd1).
  destruct (restart_keeps_map _ _ Hd1) as (s1' & t & Hr & Hd1'). exists s1', t. split; [exact Hr|].
  apply (handler_over_engine_from c s1' _ rs2 es2 segs2 Hd1' Hwf He Hc).
Qed.
