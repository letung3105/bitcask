(* Resp/ClientProofs.v — end to end: a client session (Resp/Client.v) against the handler (Resp/Handler.v)
   returns, call by call, what the map says, for every segmentation of the reply stream. *)
From BC Require Import Resp.Frame Resp.Conn Resp.Handler Resp.IntProofs Resp.FrameProofs Resp.RoundTrip Resp.Prefix Resp.Stream Resp.HandlerProofs Resp.Client.
Open Scope Z_scope.

Definition spec_result (m : kv) (r : req) : cres :=
  match r with
  | RqGet k => CVal (kv_get m k)
  | RqSet _ _ => CUnit
  | RqDel ks => CInt (snd (del_all m ks 0))
  end.
Fixpoint spec_results (m : kv) (rs : list req) : list cres :=
  match rs with
  | [] => []
  | r :: rs' => spec_result m r :: spec_results (fst (apply_cmd m (cmd_of_req r))) rs'
  end.

(* every stored value has a length that fits the length field *)
Definition kv_small (m : kv) : Prop := forall k v, kv_get m k = Some v -> small v = true.

Lemma kv_small_nil : kv_small [].
Proof. intros k v H. discriminate. Qed.

Lemma kv_small_set m k v : kv_small m -> small v = true -> kv_small (aset m k v).
Proof.
  intros Hm Hv k' v' H. rewrite kv_get_set in H.
  destruct (beq k' k); [now injection H as <-|]. exact (Hm _ _ H).
Qed.

Lemma kv_small_del m k : kv_small m -> kv_small (adel m k).
Proof.
  intros Hm k' v' H. rewrite kv_get_del in H.
  destruct (beq k' k); [discriminate|]. exact (Hm _ _ H).
Qed.

Lemma del_all_small : forall ks m c, kv_small m -> kv_small (fst (del_all m ks c)).
Proof.
  induction ks as [|k ks IH]; intros m c Hm; cbn [del_all]; [exact Hm|].
  destruct (kv_get m k); apply IH; [apply kv_small_del|]; exact Hm.
Qed.

Lemma del_all_count : forall ks m c, c <= snd (del_all m ks c) <= c + Z.of_nat (length ks).
Proof.
  induction ks as [|k ks IH]; intros m c; cbn [del_all length snd]; [lia|].
  destruct (kv_get m k).
  - specialize (IH (adel m k) (c + 1)). lia.
  - specialize (IH m c). lia.
Qed.

Lemma step_small m r : kv_small m -> wf_req r = true -> kv_small (fst (apply_cmd m (cmd_of_req r))).
Proof.
  intros Hm Hr. destruct r as [k|k v|ks]; cbn [cmd_of_req apply_cmd fst].
  - exact Hm.
  - cbn [wf_req] in Hr. apply andb_true_iff in Hr as [_ Hv]. now apply kv_small_set.
  - pose proof (del_all_small ks m 0 Hm) as H. destruct (del_all m ks 0). exact H.
Qed.

Lemma OK_writable : is_utf8 s_OK && no_crlf s_OK = true.
Proof. vm_compute. reflexivity. Qed.

Lemma reply_writable m r : kv_small m -> wf_req r = true -> writable (snd (apply_cmd m (cmd_of_req r))) = true.
Proof.
  intros Hm Hr. destruct r as [k|k v|ks]; cbn [cmd_of_req apply_cmd snd].
  - destruct (kv_get m k) as [v|] eqn:E; cbn [writable writable_single]; [|reflexivity]. exact (Hm _ _ E).
  - cbn [writable writable_single]. exact OK_writable.
  - pose proof (del_all_count ks m 0) as Hc. destruct (del_all m ks 0) as [m' n]. cbn [snd] in *.
    cbn [writable writable_single]. cbn [wf_req] in Hr. destruct ks as [|k0 ks]; [discriminate|].
    apply andb_true_iff in Hr as [_ Hn]. apply Z.leb_le in Hn.
    apply in_i64_iff. unfold i64_max in Hn. cbn [length] in *. lia.
Qed.

Fixpoint replies (m : kv) (rs : list req) : list frame :=
  match rs with
  | [] => []
  | r :: rs' => snd (apply_cmd m (cmd_of_req r)) :: replies (fst (apply_cmd m (cmd_of_req r))) rs'
  end.

Lemma spec_out_replies : forall rs m, kv_small m -> Forall (fun r => wf_req r = true) rs ->
  exists es, Forall2 encodes (replies m rs) es /\ fst (spec_out m rs) = concat es.
Proof.
  induction rs as [|r rs IH]; intros m Hm Hwf.
  - exists []. split; [constructor|reflexivity].
  - inversion Hwf as [|? ? Hr Hrs]; subst.
    destruct (IH _ (step_small m r Hm Hr) Hrs) as (es & HF & Ho).
    exists (reply_bytes m (cmd_of_req r) :: es). rewrite spec_out_cons. cbn [replies fst concat]. rewrite Ho.
    split; [|reflexivity]. constructor; [|exact HF]. split; [apply reply_writable; assumption|apply reply_encodes].
Qed.

Lemma interpret_reply m r : interpret r (RFrame (snd (apply_cmd m (cmd_of_req r)))) = spec_result m r.
Proof.
  destruct r as [k|k v|ks]; cbn [cmd_of_req apply_cmd snd spec_result interpret].
  - destruct (kv_get m k); reflexivity.
  - now rewrite beq_refl.
  - destruct (del_all m ks 0). reflexivity.
Qed.

Lemma session_app : forall rs m rs' xs,
  client_session (rs ++ rs') (map RFrame (replies m rs) ++ xs) = spec_results m rs ++ client_session rs' xs.
Proof.
  induction rs as [|r rs IH]; intros m rs' xs; [reflexivity|].
  cbn [replies map app client_session spec_results]. rewrite interpret_reply, IH. reflexivity.
Qed.

(* End to end: the calls of a session, each answered by the handler, return what the map says — whatever
   the segmentation of the reply stream. *)
Theorem client_server b : forall rs segs m, kv_small m -> Forall (fun r => wf_req r = true) rs ->
  concat segs = fst (spec_out m rs) ->
  client_session rs (read_all (fixed b) segs []) = spec_results m rs.
Proof.
  intros rs segs m Hm Hwf Hcat. destruct (spec_out_replies rs m Hm Hwf) as (es & HF & Ho).
  rewrite (read_all_stream b segs (replies m rs) es [] HF) by (cbn [app]; congruence).
  rewrite <- (app_nil_r rs) at 1. rewrite session_app. apply app_nil_r.
Qed.

(* ... and what the server receives from those calls is understood as the commands the calls name *)
Theorem client_requests_understood r : wf_req r = true ->
  (exists e, enc (frame_of_req r) = Ok e) /\ cmd_of (frame_of_req r) = inl (cmd_of_req r).
Proof. intros H. split; [exact (enc_req_ok r H)|exact (cmd_of_frame_of_req r H)]. Qed.

(* read-your-writes through the whole stack: set then get on one connection returns the bytes that were set *)
Corollary set_then_get b m k v segs : kv_small m -> wf_req (RqSet k v) = true -> wf_req (RqGet k) = true ->
  concat segs = fst (spec_out m [RqSet k v; RqGet k]) ->
  client_session [RqSet k v; RqGet k] (read_all (fixed b) segs []) = [CUnit; CVal (Some v)].
Proof.
  intros Hm H1 H2 Hc. rewrite (client_server b _ segs m Hm) by (try exact Hc; repeat constructor; assumption).
  cbn [spec_results spec_result cmd_of_req apply_cmd fst]. now rewrite kv_get_set, beq_refl.
Qed.

Lemma spec_out_small : forall rs m, kv_small m -> Forall (fun r => wf_req r = true) rs -> kv_small (snd (spec_out m rs)).
Proof.
  induction rs as [|r rs IH]; intros m Hm Hwf; [exact Hm|].
  inversion Hwf as [|? ? Hr Hrs]; subst. rewrite spec_out_cons. apply IH; [apply step_small; assumption|exact Hrs].
Qed.

(* a reply stream cut inside a frame: the calls answered so far return the map's answers, the next one a reset *)
Theorem client_truncated b : forall rs r segs m part e, kv_small m -> Forall (fun r => wf_req r = true) rs -> wf_req r = true ->
  enc (snd (apply_cmd (snd (spec_out m rs)) (cmd_of_req r))) = Ok e -> sprefix part e -> part <> [] ->
  concat segs = fst (spec_out m rs) ++ part ->
  client_session (rs ++ [r]) (read_all (fixed b) segs []) = spec_results m rs ++ [CReset].
Proof.
  intros rs r segs m part e Hm Hwf Hr He Hp Hne Hcat.
  destruct (spec_out_replies rs m Hm Hwf) as (es & HF & Ho).
  assert (Henc : encodes (snd (apply_cmd (snd (spec_out m rs)) (cmd_of_req r))) e).
  { split; [apply reply_writable; [apply spec_out_small|]; assumption|exact He]. }
  rewrite (read_all_truncated b segs (replies m rs) es _ e part [] HF Henc Hp Hne) by (cbn [app]; congruence).
  rewrite session_app. reflexivity.
Qed.
