(* Resp/FrameProofs.v — totality of Frame::check / Frame::parse in the repaired code:
   every outcome is [Ok] or [Err]; a successful call consumes at least one byte; the element loop
   never runs out of fuel; nesting is bounded by construction ([parse_d] recurses on the budget);
   the check accepts whatever the parser accepts and stops at the same byte ([parse_check]). *)
From BC Require Import Resp.Frame Resp.IntProofs.
Open Scope Z_scope.

Definition good {A} (o : outcome A) : Prop :=
  match o with Ok _ | Err _ => True | _ => False end.

Definition shrinks {A} (n : nat) (o : outcome (A * bytes)) : Prop :=
  match o with Ok (_, r) => (length r < n)%nat | Err _ => True | _ => False end.

(* "total and consuming": never panics, and success strictly shortens the suffix *)
Definition tc {A} (p : bytes -> outcome (A * bytes)) : Prop := forall l, shrinks (length l) (p l).

Lemma shrinks_good {A} n (o : outcome (A * bytes)) : shrinks n o -> good o.
Proof. destruct o as [[a r]| | | |]; cbn; auto. Qed.

Lemma shrinks_le {A} n m (o : outcome (A * bytes)) : (n <= m)%nat -> shrinks n o -> shrinks m o.
Proof. destruct o as [[a r]| | | |]; cbn; auto. lia. Qed.

Lemma lift_shrinks {A B} n m (o : outcome (A * bytes)) (f : A * bytes -> outcome (B * bytes)) :
  shrinks n o -> (forall a r, (length r < n)%nat -> shrinks m (f (a, r))) -> shrinks m (lift o f).
Proof. destruct o as [[a r]| | | |]; cbn; auto. Qed.

Lemma lift_ok {A B} (o : outcome A) (f : A -> outcome B) b :
  lift o f = Ok b -> exists a, o = Ok a /\ f a = Ok b.
Proof. destruct o; cbn; intros H; try discriminate. eauto. Qed.

Lemma lift_ok_imp {A B C} (o : outcome A) (f : A -> outcome B) (g : A -> outcome C) b c :
  (forall a, f a = Ok b -> g a = Ok c) -> lift o f = Ok b -> lift o g = Ok c.
Proof. destruct o; cbn; auto; discriminate. Qed.

Lemma lift_ext {A B} (o : outcome A) (f g : A -> outcome B) : (forall a, f a = g a) -> lift o f = lift o g.
Proof. intros H. destruct o; cbn [lift]; auto. Qed.

Lemma get_line_acc_step c y rest acc :
  get_line_acc (c :: y :: rest) acc =
  if (c =? 13)%N then Ok (rev acc, rest) else if (c =? 10)%N then Err BadEncoding else get_line_acc (y :: rest) (c :: acc).
Proof. reflexivity. Qed.

Lemma get_line_acc_tc : forall l acc, shrinks (length l) (get_line_acc l acc).
Proof.
  induction l as [|c l IH]; intros acc; [exact I|]. destruct l as [|y rest]; [exact I|].
  rewrite get_line_acc_step. destruct (c =? 13)%N; [cbn; lia|]. destruct (c =? 10)%N; [exact I|].
  apply (shrinks_le (length (y :: rest))); [cbn; lia|apply IH].
Qed.

Lemma get_line_tc : tc get_line.
Proof. intros l. apply get_line_acc_tc. Qed.

Lemma get_line_acc_inv : forall l acc s r, get_line_acc l acc = Ok (s, r) ->
  exists s' x, s = rev acc ++ s' /\ l = s' ++ 13%N :: x :: r.
Proof.
  induction l as [|c l IH]; intros acc s r H; [discriminate|].
  destruct l as [|y rest]; [discriminate|]. rewrite get_line_acc_step in H.
  destruct (c =? 13)%N eqn:Ec.
  - inversion H; subst. apply N.eqb_eq in Ec. subst c. exists [], y. rewrite app_nil_r. auto.
  - destruct (c =? 10)%N; [discriminate|]. apply IH in H as (s' & x & -> & E).
    exists (c :: s'), x. cbn [rev]. rewrite <- app_assoc. cbn [app]. rewrite E. auto.
Qed.

Lemma get_line_inv l s r : get_line l = Ok (s, r) -> exists x, l = s ++ 13%N :: x :: r.
Proof. intros H. apply get_line_acc_inv in H as (s' & x & -> & ->). exists x. reflexivity. Qed.

Lemma sign_of_length l pos rest : sign_of l = (pos, rest) -> (length rest <= length l)%nat.
Proof.
  destruct l as [|c tl]; cbn [sign_of]; [intros H; inversion H; cbn; lia|].
  destruct (c =? 45)%N; [intros H; inversion H; cbn; lia|].
  destruct (c =? 43)%N; intros H; inversion H; cbn; lia.
Qed.

Lemma get_integer_tc b tot : tc (get_integer (fixed b) tot).
Proof.
  intros l. destruct (get_integer_total b tot l) as (H1 & H2 & H3).
  destruct (get_integer (fixed b) tot l) as [[z r]| | | |] eqn:E; cbn; auto.
  apply get_integer_exact in E as (pos & bs & x & Hs & _).
  apply sign_of_length in Hs. rewrite app_length in Hs. cbn [length] in Hs. lia.
Qed.

Lemma firstn_app_exact {A} (a b : list A) : firstn (length a) (a ++ b) = a.
Proof. rewrite firstn_app, Nat.sub_diag, firstn_all. cbn. apply app_nil_r. Qed.
Lemma skipn_app_exact {A} (a b : list A) : skipn (length a) (a ++ b) = b.
Proof. rewrite skipn_app, Nat.sub_diag, skipn_all. reflexivity. Qed.

Lemma skip_app a b : skip (a ++ b) (Z.of_nat (length a)) = Ok b.
Proof.
  unfold skip. replace (_ <? _) with false by (symmetry; apply Z.ltb_ge; rewrite app_length; lia).
  rewrite Nat2Z.id, skipn_app_exact. reflexivity.
Qed.

Lemma skip_shrinks l n m : 0 < n -> (length l <= m)%nat -> shrinks m (lift (skip l n) (fun r => Ok (tt, r))).
Proof.
  intros Hn Hm. unfold skip. destruct (Z.of_nat (length l) <? n) eqn:E; [exact I|].
  apply Z.ltb_ge in E. cbn. rewrite skipn_length. lia.
Qed.

Lemma items_loop_done {A} (p : bytes -> outcome (A * bytes)) fuel n l acc : n <= 0 ->
  items_loop p fuel n l acc = Ok (rev acc, l).
Proof. intros H. apply Z.leb_le in H. destruct fuel; cbn [items_loop]; rewrite H; reflexivity. Qed.

Lemma items_loop_pos {A} (p : bytes -> outcome (A * bytes)) fuel n l acc : 0 < n ->
  items_loop p (S fuel) n l acc = lift (p l) (fun '(x, l') => items_loop p fuel (n - 1) l' (x :: acc)).
Proof. intros H. apply Z.leb_gt in H. cbn [items_loop]. rewrite H. reflexivity. Qed.

Lemma items_loop_tc {A} (p : bytes -> outcome (A * bytes)) : tc p ->
  forall fuel n l acc, (length l < fuel)%nat -> shrinks (S (length l)) (items_loop p fuel n l acc).
Proof.
  intros Hp. induction fuel as [|f IH]; intros n l acc Hf; [lia|].
  destruct (Z.leb_spec n 0) as [Hn|Hn]; [rewrite items_loop_done by exact Hn; cbn; lia|].
  rewrite items_loop_pos by exact Hn. apply (lift_shrinks (length l)); [apply Hp|].
  intros x l' Hl'. apply (shrinks_le (S (length l'))); [lia|]. apply IH. lia.
Qed.

Lemma items_loop_ext {A} (p q : bytes -> outcome (A * bytes)) : (forall l, p l = q l) ->
  forall fuel n l acc, items_loop p fuel n l acc = items_loop q fuel n l acc.
Proof.
  intros H. induction fuel as [|f IH]; intros n l acc; cbn [items_loop]; [reflexivity|].
  destruct (n <=? 0); [reflexivity|]. rewrite H. destruct (q l) as [[x l']| | | |]; auto.
Qed.

Lemma items_loop_map {A B} (p : bytes -> outcome (A * bytes)) (q : bytes -> outcome (B * bytes)) (g : A -> B) :
  (forall l a r, p l = Ok (a, r) -> q l = Ok (g a, r)) ->
  forall fuel n l acc xs r, items_loop p fuel n l acc = Ok (xs, r) ->
    items_loop q fuel n l (map g acc) = Ok (map g xs, r).
Proof.
  intros H. induction fuel as [|f IH]; intros n l acc xs r; cbn [items_loop]; destruct (n <=? 0).
  1,3: intros E; inversion E; subst; rewrite map_rev; reflexivity.
  - discriminate.
  - destruct (p l) as [[a l1]| | | |] eqn:Ep; try discriminate. rewrite (H _ _ _ Ep). apply (IH _ _ (a :: acc)).
Qed.

(* Case analysis for a statement about [parse_d] / [check_d]: by leading byte, and by induction on
   the budget where it matters, at '*'. *)
Lemma walk_ind (Q : nat -> bytes -> Prop) :
  (forall d, Q d []) ->
  (forall d l, Q d (43%N :: l)) -> (forall d l, Q d (45%N :: l)) -> (forall d l, Q d (58%N :: l)) ->
  (forall d l, Q d (36%N :: l)) ->
  (forall l, Q O (42%N :: l)) -> (forall d l, (forall l', Q d l') -> Q (S d) (42%N :: l)) ->
  (forall d c l, (c =? 43)%N = false -> (c =? 45)%N = false -> (c =? 58)%N = false -> (c =? 36)%N = false ->
                 (c =? 42)%N = false -> Q d (c :: l)) ->
  forall d l, Q d l.
Proof.
  intros Hnil H43 H45 H58 H36 H0 HS Ho.
  induction d as [|d IH]; intros [|c l]; try apply Hnil.
  all: destruct (c =? 43)%N eqn:E1; [apply N.eqb_eq in E1; subst c; apply H43|].
  all: destruct (c =? 45)%N eqn:E2; [apply N.eqb_eq in E2; subst c; apply H45|].
  all: destruct (c =? 58)%N eqn:E3; [apply N.eqb_eq in E3; subst c; apply H58|].
  all: destruct (c =? 36)%N eqn:E4; [apply N.eqb_eq in E4; subst c; apply H36|].
  all: destruct (c =? 42)%N eqn:E5; [apply N.eqb_eq in E5; subst c|apply Ho; assumption].
  - apply H0.
  - apply HS. exact IH.
Qed.

(* What the two walkers do, by leading byte; the budget matters for '*' only. *)
Section Tags.
Variables (v : variant) (tot : N) (d : nat).

Lemma parse_d_nil : parse_d v tot d [] = Err Incomplete.
Proof. destruct d; reflexivity. Qed.

Lemma parse_d_simple l : parse_d v tot d (43%N :: l) =
  lift (get_line l) (fun '(s, r) => if is_utf8 s then Ok (Simple s, r) else Err NotUtf8).
Proof. destruct d; reflexivity. Qed.

Lemma parse_d_error l : parse_d v tot d (45%N :: l) =
  lift (get_line l) (fun '(s, r) => if is_utf8 s then Ok (Error s, r) else Err NotUtf8).
Proof. destruct d; reflexivity. Qed.

Lemma parse_d_int l : parse_d v tot d (58%N :: l) = lift (get_integer v tot l) (fun '(z, r) => Ok (Integer z, r)).
Proof. destruct d; reflexivity. Qed.

Lemma parse_d_dollar l : parse_d v tot d (36%N :: l) =
  match l with
  | [] => Err Incomplete
  | c1 :: _ =>
    if (c1 =? 45)%N then
      lift (get_line l) (fun '(s, r) => if beq s [45; 49]%N then Ok (Null, r) else Err BadEncoding)
    else
      lift (get_integer v tot l) (fun '(n, r) =>
        if n <? 0 then Err BadEncoding
        else if Z.of_nat (length r) <? n + 2 then Err Incomplete
        else Ok (Bulk (firstn (Z.to_nat n) r), skipn (Z.to_nat (n + 2)) r))
  end.
Proof. destruct d; reflexivity. Qed.

Lemma parse_d_null l : parse_d v tot d (36%N :: 45%N :: l) =
  lift (get_line (45%N :: l)) (fun '(s, r) => if beq s [45; 49]%N then Ok (Null, r) else Err BadEncoding).
Proof. apply parse_d_dollar. Qed.

(* a length field without a sign: a bulk string *)
Lemma parse_d_bulk l : sign_of l = (true, l) -> parse_d v tot d (36%N :: l) =
  lift (get_integer v tot l) (fun '(n, r) =>
    if n <? 0 then Err BadEncoding
    else if Z.of_nat (length r) <? n + 2 then Err Incomplete
    else Ok (Bulk (firstn (Z.to_nat n) r), skipn (Z.to_nat (n + 2)) r)).
Proof.
  intros H. rewrite parse_d_dollar. destruct l as [|c l']; [reflexivity|].
  cbn [sign_of] in H. destruct (c =? 45)%N; [discriminate|reflexivity].
Qed.

Lemma parse_d_array0 l : parse_d v tot 0 (42%N :: l) = depth_exceeded v.
Proof. reflexivity. Qed.

Lemma parse_d_array l : parse_d v tot (S d) (42%N :: l) =
  lift (get_integer v tot l) (fun '(n, r) =>
    if n <? 0 then Err BadEncoding
    else lift (items_loop (parse_d v tot d) (S (length r)) n r []) (fun '(items, r') => Ok (Array items, r'))).
Proof. reflexivity. Qed.

Lemma parse_d_other c l : (c =? 43)%N = false -> (c =? 45)%N = false -> (c =? 58)%N = false ->
  (c =? 36)%N = false -> (c =? 42)%N = false -> parse_d v tot d (c :: l) = Err BadEncoding.
Proof. intros H1 H2 H3 H4 H5. destruct d; cbn [parse_d]; rewrite H1, H2, H3, H4, H5; reflexivity. Qed.

Lemma check_d_nil : check_d v tot d [] = Err Incomplete.
Proof. destruct d; reflexivity. Qed.

Lemma check_d_simple l : check_d v tot d (43%N :: l) = lift (get_line l) (fun '(_, r) => Ok (tt, r)).
Proof. destruct d; reflexivity. Qed.

Lemma check_d_error l : check_d v tot d (45%N :: l) = lift (get_line l) (fun '(_, r) => Ok (tt, r)).
Proof. destruct d; reflexivity. Qed.

Lemma check_d_int l : check_d v tot d (58%N :: l) = lift (get_integer v tot l) (fun '(_, r) => Ok (tt, r)).
Proof. destruct d; reflexivity. Qed.

Lemma check_d_dollar l : check_d v tot d (36%N :: l) =
  match l with
  | [] => Err Incomplete
  | c1 :: _ =>
    if (c1 =? 45)%N then lift (skip l 4) (fun r => Ok (tt, r))
    else
      lift (get_integer v tot l) (fun '(n, r) =>
        if n <? 0 then Err BadEncoding else lift (skip r (n + 2)) (fun r' => Ok (tt, r')))
  end.
Proof. destruct d; reflexivity. Qed.

Lemma check_d_array0 l : check_d v tot 0 (42%N :: l) = depth_exceeded v.
Proof. reflexivity. Qed.

Lemma check_d_array l : check_d v tot (S d) (42%N :: l) =
  lift (get_integer v tot l) (fun '(n, r) =>
    lift (items_loop (check_d v tot d) (S (length r)) n r []) (fun '(_, r') => Ok (tt, r'))).
Proof. reflexivity. Qed.

Lemma check_d_other c l : (c =? 43)%N = false -> (c =? 45)%N = false -> (c =? 58)%N = false ->
  (c =? 36)%N = false -> (c =? 42)%N = false -> check_d v tot d (c :: l) = Err BadEncoding.
Proof. intros H1 H2 H3 H4 H5. destruct d; cbn [check_d]; rewrite H1, H2, H3, H4, H5; reflexivity. Qed.
End Tags.

Lemma parse_d_tc b tot : forall d, tc (parse_d (fixed b) tot d).
Proof.
  unfold tc. apply walk_ind.
  - intros d. rewrite parse_d_nil. exact I.
  - intros d l. rewrite parse_d_simple. apply (lift_shrinks (length l)); [apply get_line_tc|].
    intros s r Hr. destruct (is_utf8 s); [cbn; lia|exact I].
  - intros d l. rewrite parse_d_error. apply (lift_shrinks (length l)); [apply get_line_tc|].
    intros s r Hr. destruct (is_utf8 s); [cbn; lia|exact I].
  - intros d l. rewrite parse_d_int. apply (lift_shrinks (length l)); [apply get_integer_tc|].
    intros z r Hr. cbn. lia.
  - intros d l. rewrite parse_d_dollar. destruct l as [|c1 l2]; [exact I|]. destruct (c1 =? 45)%N.
    + apply (lift_shrinks (length (c1 :: l2))); [apply get_line_tc|].
      intros s r Hr. destruct (beq s _); [cbn in *; lia|exact I].
    + apply (lift_shrinks (length (c1 :: l2))); [apply get_integer_tc|].
      intros n r Hr. destruct (n <? 0); [exact I|]. destruct (_ <? _); [exact I|]. cbn in *. rewrite skipn_length. lia.
  - intros l. exact I.
  - intros d l IH. rewrite parse_d_array. apply (lift_shrinks (length l)); [apply get_integer_tc|].
    intros n r Hr. destruct (n <? 0); [exact I|].
    apply (lift_shrinks (S (length r))); [apply items_loop_tc; [exact IH|lia]|].
    intros items r' Hr'. cbn. lia.
  - intros d c l H1 H2 H3 H4 H5. rewrite parse_d_other by assumption. exact I.
Qed.

Lemma check_d_tc b tot : forall d, tc (check_d (fixed b) tot d).
Proof.
  unfold tc. apply walk_ind.
  - intros d. rewrite check_d_nil. exact I.
  - intros d l. rewrite check_d_simple. apply (lift_shrinks (length l)); [apply get_line_tc|].
    intros s r Hr. cbn. lia.
  - intros d l. rewrite check_d_error. apply (lift_shrinks (length l)); [apply get_line_tc|].
    intros s r Hr. cbn. lia.
  - intros d l. rewrite check_d_int. apply (lift_shrinks (length l)); [apply get_integer_tc|].
    intros z r Hr. cbn. lia.
  - intros d l. rewrite check_d_dollar. destruct l as [|c1 l2]; [exact I|]. destruct (c1 =? 45)%N.
    + apply skip_shrinks; cbn [length]; lia.
    + apply (lift_shrinks (length (c1 :: l2))); [apply get_integer_tc|].
      intros n r Hr. destruct (n <? 0) eqn:En; [exact I|]. apply Z.ltb_ge in En.
      apply skip_shrinks; cbn [length] in *; lia.
  - intros l. exact I.
  - intros d l IH. rewrite check_d_array. apply (lift_shrinks (length l)); [apply get_integer_tc|].
    intros n r Hr. apply (lift_shrinks (S (length r))); [apply items_loop_tc; [exact IH|lia]|].
    intros items r' Hr'. cbn. lia.
  - intros d c l H1 H2 H3 H4 H5. rewrite check_d_other by assumption. exact I.
Qed.

Theorem parse_total b l : good (parse (fixed b) l).
Proof. unfold parse. eapply shrinks_good, parse_d_tc. Qed.

Theorem check_total b l : good (check (fixed b) l).
Proof. unfold check. eapply shrinks_good, check_d_tc. Qed.

(* Nesting: [parse_d] / [check_d] are structurally recursive on the budget, which starts at
   [max_depth] = 32 and decreases by one per array level; an array met with budget 0 is an error. *)
Fixpoint nested (k : nat) (inner : bytes) : bytes :=
  match k with O => inner | S k' => [42; 49; 13; 10]%N ++ nested k' inner end.

Lemma nested_rejected_at_budget b tot : forall d l r,
  check_d (fixed b) tot d (nested (S d) l ++ r) = Err BadEncoding /\
  parse_d (fixed b) tot d (nested (S d) l ++ r) = Err BadEncoding.
Proof.
  induction d as [|d IH]; intros l r; [split; reflexivity|].
  destruct (IH l r) as [IHc IHp].
  change (nested (S (S d)) l ++ r) with (42%N :: 49%N :: 13%N :: 10%N :: (nested (S d) l ++ r)).
  set (rest := nested (S d) l ++ r) in *.
  assert (Hone : get_integer (fixed b) tot (49%N :: 13%N :: 10%N :: rest) = Ok (1, rest)).
  { rewrite (get_integer_accepts b tot _ true [49%N] 10%N rest); [reflexivity|reflexivity|discriminate|reflexivity]. }
  rewrite check_d_array, parse_d_array, Hone. cbn [lift]. change (1 <? 0) with false. cbv iota.
  rewrite !items_loop_pos, IHc, IHp by lia. split; reflexivity.
Qed.

(* Build mode does not matter after the repair: the walkers look at the variant only through the
   integer reader and the answer at exhausted budget. *)
Section TwoVariants.
Variables (v1 v2 : variant) (tot : N).
Hypothesis Hgi : forall l, get_integer v1 tot l = get_integer v2 tot l.
Hypothesis Habort : v_depth_abort v1 = v_depth_abort v2.

Lemma parse_d_variant : forall d l, parse_d v1 tot d l = parse_d v2 tot d l.
Proof.
  apply walk_ind.
  - intros d. rewrite !parse_d_nil. reflexivity.
  - intros d l. rewrite !parse_d_simple. reflexivity.
  - intros d l. rewrite !parse_d_error. reflexivity.
  - intros d l. rewrite !parse_d_int, Hgi. reflexivity.
  - intros d l. rewrite !parse_d_dollar, Hgi. reflexivity.
  - intros l. rewrite !parse_d_array0. unfold depth_exceeded. rewrite Habort. reflexivity.
  - intros d l IH. rewrite !parse_d_array, Hgi. apply lift_ext. intros [n r].
    rewrite (items_loop_ext _ _ IH). reflexivity.
  - intros d c l H1 H2 H3 H4 H5. rewrite !parse_d_other by assumption. reflexivity.
Qed.

Lemma check_d_variant : forall d l, check_d v1 tot d l = check_d v2 tot d l.
Proof.
  apply walk_ind.
  - intros d. rewrite !check_d_nil. reflexivity.
  - intros d l. rewrite !check_d_simple. reflexivity.
  - intros d l. rewrite !check_d_error. reflexivity.
  - intros d l. rewrite !check_d_int, Hgi. reflexivity.
  - intros d l. rewrite !check_d_dollar, Hgi. reflexivity.
  - intros l. rewrite !check_d_array0. unfold depth_exceeded. rewrite Habort. reflexivity.
  - intros d l IH. rewrite !check_d_array, Hgi. apply lift_ext. intros [n r].
    rewrite (items_loop_ext _ _ IH). reflexivity.
  - intros d c l H1 H2 H3 H4 H5. rewrite !check_d_other by assumption. reflexivity.
Qed.
End TwoVariants.

Theorem parse_build_irrelevant tot : forall d l, parse_d (fixed Debug) tot d l = parse_d (fixed Release) tot d l.
Proof. apply parse_d_variant; [apply get_integer_build_irrelevant|reflexivity]. Qed.

Theorem check_build_irrelevant tot : forall d l, check_d (fixed Debug) tot d l = check_d (fixed Release) tot d l.
Proof. apply check_d_variant; [apply get_integer_build_irrelevant|reflexivity]. Qed.

(* The completeness check is the parser with the frames forgotten, in every variant. *)
Theorem parse_check v tot : forall d l f r, parse_d v tot d l = Ok (f, r) -> check_d v tot d l = Ok (tt, r).
Proof.
  refine (walk_ind _ _ _ _ _ _ _ _ _).
  - intros d f r. rewrite parse_d_nil. discriminate.
  - intros d l f r. rewrite parse_d_simple, check_d_simple. apply lift_ok_imp.
    intros [s q] H. destruct (is_utf8 s); inversion H. reflexivity.
  - intros d l f r. rewrite parse_d_error, check_d_error. apply lift_ok_imp.
    intros [s q] H. destruct (is_utf8 s); inversion H. reflexivity.
  - intros d l f r. rewrite parse_d_int, check_d_int. apply lift_ok_imp.
    intros [z q] H. inversion H. reflexivity.
  - intros d l f r. rewrite parse_d_dollar, check_d_dollar. destruct l as [|c1 l2]; [discriminate|].
    destruct (c1 =? 45)%N.
    + (* the parser reads the line "-1", the check skips four bytes *)
      intros H. apply lift_ok in H as ([s q] & E & H). destruct (beq s [45; 49]%N) eqn:Es; inversion H; subst.
      apply beq_eq in Es. subst s. apply get_line_inv in E as (x & ->).
      change (skip _ 4) with (skip ([45; 49; 13; x]%N ++ r) (Z.of_nat (length [45; 49; 13; x]%N))).
      rewrite skip_app. reflexivity.
    + apply lift_ok_imp. intros [n q]. destruct (n <? 0); [discriminate|]. unfold skip.
      destruct (_ <? n + 2); intros H; inversion H. reflexivity.
  - intros l f r. rewrite parse_d_array0. unfold depth_exceeded. destruct (v_depth_abort v); discriminate.
  - intros d l IH f r. rewrite parse_d_array, check_d_array. apply lift_ok_imp.
    intros [n q]. destruct (n <? 0); [discriminate|]. intros H. apply lift_ok in H as ([xs q'] & E & H).
    inversion H; subst. apply (items_loop_map _ _ (fun _ => tt) IH) in E. cbn [map] in E. rewrite E. reflexivity.
  - intros d c l H1 H2 H3 H4 H5 f r. rewrite parse_d_other by assumption. discriminate.
Qed.

Corollary check_parse_agree b tot d l u r1 f r2 :
  check_d (fixed b) tot d l = Ok (u, r1) -> parse_d (fixed b) tot d l = Ok (f, r2) -> r1 = r2.
Proof. intros Hc Hp. rewrite (parse_check _ _ _ _ _ _ Hp) in Hc. inversion Hc. reflexivity. Qed.
