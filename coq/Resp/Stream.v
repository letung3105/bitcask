(* Resp/Stream.v — a concatenation of encoded frames is decoded to the same frames however the
   bytes are cut into socket reads, and a stream that ends inside a frame is a reset (C08). *)
From BC Require Import Resp.Frame Resp.Conn Resp.IntProofs Resp.FrameProofs Resp.RoundTrip Resp.Prefix.
Open Scope Z_scope.

Theorem check_prefix b f bs p : writable f = true -> enc f = Ok bs -> sprefix p bs ->
  check (fixed b) p = Err Incomplete.
Proof.
  intros Hw He Hp. apply (check_d_incremental b _ _ p bs [] tt Hp).
  apply (parse_check _ _ _ _ f), (enc_parse_d b _ 31); assumption.
Qed.

Lemma enc_nonnil f bs : enc f = Ok bs -> bs <> [].
Proof.
  destruct f; try (apply enc_single_nonnil). cbn [enc]. destruct (enc_items l); intros H; inversion H; discriminate.
Qed.

Lemma parse_frame_roundtrip b f bs rest : writable f = true -> enc f = Ok bs ->
  parse_frame (fixed b) (bs ++ rest) = Ok (Some (f, rest)).
Proof.
  intros Hw He. unfold parse_frame. destruct (roundtrip b f bs rest Hw He) as [Hp Hc]. rewrite Hc, Hp. reflexivity.
Qed.

Lemma parse_frame_prefix b f bs p : writable f = true -> enc f = Ok bs -> sprefix p bs -> parse_frame (fixed b) p = Ok None.
Proof. intros Hw He Hp. unfold parse_frame. rewrite (check_prefix b f bs p Hw He Hp). reflexivity. Qed.

Lemma parse_frame_empty b : parse_frame (fixed b) [] = Ok None.
Proof. reflexivity. Qed.

Definition encodes (f : frame) (e : bytes) : Prop := writable f = true /\ enc f = Ok e.

(* The stream is [concat es ++ tail], where nothing that [tail] starts with is a whole frame.
   Draining a buffer that is a prefix of it delivers whole frames and stops at an incomplete rest. *)
Lemma drain_frames b tail : (forall p q, tail = p ++ q -> parse_frame (fixed b) p = Ok None) ->
  forall fs es, Forall2 encodes fs es ->
  forall buf future fuel, buf ++ future = concat es ++ tail -> (length buf < fuel)%nat ->
  exists fs1 fs2 es2 buf', fs = fs1 ++ fs2 /\ Forall2 encodes fs2 es2 /\ buf' ++ future = concat es2 ++ tail /\
    drain (fixed b) fuel buf = (map RFrame fs1, Some buf') /\ parse_frame (fixed b) buf' = Ok None.
Proof.
  intros Htail fs es HF. induction HF as [|f e fs es [Hw He] HF IH]; intros buf future fuel H Hfuel.
  all: destruct fuel as [|fuel]; [lia|]; cbn [drain].
  - pose proof (Htail buf future (eq_sym H)) as Hn. exists [], [], [], buf. rewrite Hn. repeat split; [constructor|exact H].
  - cbn [concat] in H. rewrite <- app_assoc in H. destruct (prefix_cases _ _ _ _ H) as [Hs|(l & -> & Hl)].
    + pose proof (parse_frame_prefix b f e buf Hw He Hs) as Hn. exists [], (f :: fs), (e :: es), buf. rewrite Hn.
      cbn [concat]. rewrite <- app_assoc. repeat split; [constructor; [split|]; assumption|exact H].
    + destruct (IH l future fuel (eq_sym Hl)) as (fs1 & fs2 & es2 & buf' & -> & HF2 & Ef & Hd & Hn).
      { apply enc_nonnil in He. rewrite app_length in Hfuel. destruct e; [congruence|]. cbn [length] in Hfuel. lia. }
      exists (f :: fs1), fs2, es2, buf'. rewrite (parse_frame_roundtrip b f e l Hw He), Hd. repeat split; auto.
Qed.

Theorem read_all_frames b tail : (forall p q, tail = p ++ q -> parse_frame (fixed b) p = Ok None) ->
  forall segs fs es buf, Forall2 encodes fs es -> buf ++ concat segs = concat es ++ tail ->
  read_all (fixed b) segs buf = map RFrame fs ++ [match tail with [] => RClean | _ => RReset end].
Proof.
  intros Htail. induction segs as [|s segs IH]; intros fs es buf HF H; cbn [read_all concat] in *.
  - destruct (drain_frames b tail Htail fs es HF buf [] (S (length buf)) H) as (fs1 & fs2 & es2 & buf' & -> & HF2 & Ef & -> & Hn); [lia|].
    rewrite app_nil_r in Ef. subst buf'. destruct HF2 as [|f e fs2 es2 [Hw He] _].
    + rewrite app_nil_r. reflexivity.
    + (* a whole frame left in the buffer would have been delivered *)
      cbn [concat] in Hn. rewrite <- app_assoc, (parse_frame_roundtrip b f e _ Hw He) in Hn. discriminate.
  - destruct (drain_frames b tail Htail fs es HF buf (s ++ concat segs) (S (length buf)) H) as (fs1 & fs2 & es2 & buf' & -> & HF2 & Ef & -> & _); [lia|].
    rewrite map_app, <- app_assoc. f_equal. apply (IH fs2 es2); [exact HF2|]. rewrite <- app_assoc. exact Ef.
Qed.

Theorem read_all_stream b : forall segs fs es buf, Forall2 encodes fs es ->
  buf ++ concat segs = concat es ->
  read_all (fixed b) segs buf = map RFrame fs ++ [RClean].
Proof.
  intros segs fs es buf HF H. apply (read_all_frames b []) with (es := es); [|exact HF|rewrite app_nil_r; exact H].
  intros p q E. symmetry in E. apply app_eq_nil in E as [-> _]. apply parse_frame_empty.
Qed.

(* the stream ends inside a frame: everything before it is delivered, then a reset, not a clean end *)
Theorem read_all_truncated b : forall segs fs es f e part buf, Forall2 encodes fs es -> encodes f e ->
  sprefix part e -> part <> [] ->
  buf ++ concat segs = concat es ++ part ->
  read_all (fixed b) segs buf = map RFrame fs ++ [RReset].
Proof.
  intros segs fs es f e part buf HF [Hw He] (q' & Hq' & ->) Hne H.
  destruct part as [|x part]; [congruence|]. apply (read_all_frames b (x :: part)) with (es := es); [|exact HF|exact H].
  intros p q E. apply (parse_frame_prefix b f (p ++ q ++ q') p Hw); [rewrite app_assoc, <- E; exact He|].
  exists (q ++ q'). split; [|reflexivity]. intros C. apply app_eq_nil in C as [_ C]. congruence.
Qed.
