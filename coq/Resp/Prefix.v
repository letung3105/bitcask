(* Resp/Prefix.v — the verdict of Frame::check does not change when more bytes arrive: a length
   stays that length and an error other than Incomplete stays that error ([check_d_stable], every
   input).  So every strict prefix of what the check accepts is reported Incomplete, and
   Connection::parse_frame waits for more bytes (C08, third clause). *)
From BC Require Import Resp.Frame Resp.IntProofs Resp.FrameProofs Resp.RoundTrip.
Open Scope Z_scope.

Definition sprefix (p l : bytes) : Prop := exists q, q <> [] /\ l = p ++ q.

Lemma sprefix_nil l : l <> [] -> sprefix [] l.
Proof. intros H. exists l. auto. Qed.

Lemma sprefix_cons x p l : sprefix (x :: p) (x :: l) <-> sprefix p l.
Proof.
  split; intros (q & Hq & E); exists q; split; auto; [inversion E; auto|cbn; rewrite E; reflexivity].
Qed.

Lemma sprefix_cons_inv p x l : sprefix p (x :: l) -> p = [] \/ exists p', p = x :: p' /\ sprefix p' l.
Proof.
  intros (q & Hq & E). destruct p as [|y p]; [left; reflexivity|right]. inversion E; subst. exists p. split; [reflexivity|]. exists q. auto.
Qed.

Lemma sprefix_length p l : sprefix p l -> (length p < length l)%nat.
Proof. intros (q & Hq & ->). rewrite app_length. destruct q; [congruence|]. cbn [length]. lia. Qed.

Lemma prefix_cases (p q a b : bytes) : p ++ q = a ++ b -> sprefix p a \/ exists l, p = a ++ l /\ b = l ++ q.
Proof.
  intros E. apply app_eq_app in E as (l & [[-> ->]|[-> ->]]); [right; eauto|].
  destruct l as [|x l].
  - right. exists []. rewrite !app_nil_r. auto.
  - left. exists (x :: l). split; [discriminate|reflexivity].
Qed.

Lemma sprefix_app p a b : sprefix p (a ++ b) -> sprefix p a \/ exists p', p = a ++ p' /\ sprefix p' b.
Proof.
  intros (q & Hq & E). symmetry in E. apply prefix_cases in E as [Hp|(l & -> & ->)]; [left; exact Hp|right].
  exists l. split; [reflexivity|]. exists q. auto.
Qed.

(* More bytes at the end change nothing once the reader has said something other than Incomplete. *)
Definition stable {A} (p : bytes -> outcome (A * bytes)) : Prop := forall l t,
  match p l with
  | Ok (a, r) => p (l ++ t) = Ok (a, r ++ t)
  | Err e => e = Incomplete \/ p (l ++ t) = Err e
  | _ => True
  end.

(* Were the verdict on a strict prefix [q] of [e] anything but Incomplete, it would be the verdict on
   [e ++ r] too; a success would leave more than [r]. *)
Lemma stable_incomplete {A} (p : bytes -> outcome (A * bytes)) q e r a : stable p -> good (p q) ->
  sprefix q e -> p (e ++ r) = Ok (a, r) -> p q = Err Incomplete.
Proof.
  intros Hs Hg (t & Ht & ->) E. rewrite <- app_assoc in E. specialize (Hs q (t ++ r)).
  destruct (p q) as [[a' r']|e| | |]; try contradiction.
  - rewrite Hs in E. injection E as _ Er. apply (f_equal (@length _)) in Er. rewrite !app_length in Er.
    destruct t; [congruence|cbn [length] in Er; lia].
  - destruct Hs as [->|Hs]; [reflexivity|congruence].
Qed.

Lemma ret_stable {B} (b : B) : stable (fun r => Ok (b, r)).
Proof. intros l t. reflexivity. Qed.

Lemma lift_stable {A B} (p : bytes -> outcome (A * bytes)) (f : A * bytes -> outcome (B * bytes)) :
  stable p -> (forall a, stable (fun r => f (a, r))) -> stable (fun l => lift (p l) f).
Proof.
  intros Hp Hf l t. specialize (Hp l t). destruct (p l) as [[a r]|e| | |]; cbn [lift]; auto.
  - rewrite Hp. exact (Hf a r t).
  - destruct Hp as [-> | ->]; auto.
Qed.

Lemma get_line_acc_stable acc : stable (fun l => get_line_acc l acc).
Proof.
  intros l. revert acc. induction l as [|c l IH]; intros acc t; [left; reflexivity|].
  destruct l as [|y rest]; [left; reflexivity|]. cbn [app]. rewrite !get_line_acc_step.
  destruct (c =? 13)%N; [reflexivity|]. destruct (c =? 10)%N; [right; reflexivity|]. exact (IH (c :: acc) t).
Qed.

Lemma skip_stable n : stable (fun l => lift (skip l n) (fun r => Ok (tt, r))).
Proof.
  intros l t. unfold skip. destruct (Z.ltb_spec (Z.of_nat (length l)) n) as [H|H]; [left; reflexivity|].
  replace (_ <? n) with false by (symmetry; apply Z.ltb_ge; rewrite app_length; lia).
  cbn [lift]. rewrite skipn_app. replace (Z.to_nat n - length l)%nat with 0%nat by lia. reflexivity.
Qed.

(* the scan has stopped at a non-digit with a byte after it, and still stops there *)
Lemma get_integer_stable b tot : stable (get_integer (fixed b) tot).
Proof.
  intros l t. destruct (get_integer_view l) as (pos & bs & l' & Hs & Hd & Hl & ->).
  destruct l' as [|c [|y r]]; [left; reflexivity|left; reflexivity|].
  destruct Hl as [E|Ht]; [destruct bs; discriminate|].
  rewrite (get_integer_spec b tot (l ++ t) pos bs (c :: y :: r ++ t)); [| |exact Hd|inversion Ht; constructor; assumption].
  - unfold int_result. destruct (_ || _); [right; reflexivity|]. destruct (in_i64 _); [reflexivity|right; reflexivity].
  - rewrite (sign_of_app l pos _ t Hs), <- app_assoc; [reflexivity|apply app_tail3_nonnil, Ht].
Qed.

(* the fuel is the length of the buffer, so it grows with it: any two sufficient amounts do *)
Lemma items_loop_stable {A} (p : bytes -> outcome (A * bytes)) : tc p -> stable p ->
  forall fuel1 fuel2 n l acc t, (length l < fuel1)%nat -> (length (l ++ t) < fuel2)%nat ->
  match items_loop p fuel1 n l acc with
  | Ok (xs, r) => items_loop p fuel2 n (l ++ t) acc = Ok (xs, r ++ t)
  | Err e => e = Incomplete \/ items_loop p fuel2 n (l ++ t) acc = Err e
  | _ => True
  end.
Proof.
  intros Hc Hp. induction fuel1 as [|f1 IH]; intros [|f2] n l acc t H1 H2; try lia.
  destruct (Z.leb_spec n 0) as [Hn|Hn]; [rewrite !items_loop_done by exact Hn; reflexivity|].
  rewrite !items_loop_pos by exact Hn. specialize (Hc l). specialize (Hp l t).
  destruct (p l) as [[x l']|e| | |]; cbn [lift]; auto.
  - rewrite Hp. cbn [lift shrinks] in *. apply IH; [lia|rewrite app_length in *; lia].
  - destruct Hp as [-> | ->]; auto.
Qed.

Theorem check_d_stable b tot : forall d, stable (check_d (fixed b) tot d).
Proof.
  refine (walk_ind _ _ _ _ _ _ _ _ _).
  - intros d t. rewrite check_d_nil. left. reflexivity.
  - intros d l t. cbn [app]. rewrite !check_d_simple. apply (lift_stable get_line _ (get_line_acc_stable [])).
    intros s. apply ret_stable.
  - intros d l t. cbn [app]. rewrite !check_d_error. apply (lift_stable get_line _ (get_line_acc_stable [])).
    intros s. apply ret_stable.
  - intros d l t. cbn [app]. rewrite !check_d_int. apply (lift_stable _ _ (get_integer_stable b tot)).
    intros z. apply ret_stable.
  - intros d l t. cbn [app]. rewrite !check_d_dollar. destruct l as [|c1 l2]; [left; reflexivity|]. cbn [app].
    destruct (c1 =? 45)%N; [apply (skip_stable 4 (c1 :: l2))|].
    refine (lift_stable _ _ (get_integer_stable b tot) _ (c1 :: l2) t). intros n. destruct (n <? 0); [|apply skip_stable].
    intros r t'. right. reflexivity.
  - intros l t. cbn [app]. rewrite !check_d_array0. right. reflexivity.
  - intros d l IH t. cbn [app]. rewrite !check_d_array. apply (lift_stable _ _ (get_integer_stable b tot)).
    intros n. apply (lift_stable (fun r => items_loop (check_d (fixed b) tot d) (S (length r)) n r [])).
    + intros r t'. apply items_loop_stable; [apply check_d_tc|exact IH|lia|lia].
    + intros xs. apply ret_stable.
  - intros d c l H1 H2 H3 H4 H5 t. cbn [app]. rewrite !check_d_other by assumption. right. reflexivity.
Qed.

Theorem check_d_incremental b tot d q e r u : sprefix q e -> check_d (fixed b) tot d (e ++ r) = Ok (u, r) ->
  check_d (fixed b) tot d q = Err Incomplete.
Proof. apply stable_incomplete; [apply check_d_stable|eapply shrinks_good, check_d_tc]. Qed.
