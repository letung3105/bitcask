(* Resp/ServerStore.v — the storage theorems, for the server.  Resp/OverEngine.v shows that the per-connection loop
   turns any input into a script of sets, gets and deletes on the engine ([script_of], [handle_is_script]); here the
   theorems about scripts that need no further hypothesis are instantiated with that script: power-loss safety under
   sync=always (C09) and the file discipline (C14). *)
From BC Require Import Base.Bytes Resp.Frame Resp.Conn Resp.Handler Resp.HandlerProofs Resp.OverEngine.
From BC Require Import Store.Codec Store.Engine Store.Log Store.Inv Store.Refine Store.Theorems Store.Trace Store.Crash Store.CrashScript
  Store.CrashMerge Store.Discipline Store.Power.
From Coq Require Import List.
Import ListNotations.

(* With sync=always, whatever a connection sends: every power image of the system calls its commands cause opens to the
   map after some prefix of the engine operations they consist of, and at the end everything written is durable. *)
Theorem server_power_safe c segs st0 : c_sync c = true ->
  let ops := script_of (read_all (fixed Release) segs []) in
  synced st0 -> rep (fst st0) (s_dir init) -> trace_wf (snd (run c init ops)) ->
  (exists st1, prun st0 (snd (run c init ops)) = Some st1 /\ synced st1 /\ rep (fst st1) (s_dir (fst (fst (run c init ops))))) /\
  forall img, power_image_of st0 (snd (run c init ops)) img ->
    exists n, (n <= length ops)%nat /\ img_ok_p img (abs (state_after c init ops n)).
Proof.
  intros Hs ops Hsy Hrep Hwf. apply power_safe_script; auto; [exact (proj1 init_inv)|].
  apply no_merge_ready. apply script_no_merge.
Qed.

(* The system calls the server's commands cause obey the file discipline: fresh growing ids, appends to the newest
   data file only, never beyond the size limit by more than one record. *)
Theorem server_traces_accepted c segs :
  disc_ok (c_max c) (mon_init []) (SCreate (FData 0) :: snd (run c init (script_of (read_all (fixed Release) segs [])))) = true.
Proof. apply model_traces_accepted. apply no_merge_ready. apply script_no_merge. Qed.
