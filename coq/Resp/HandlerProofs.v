(* Resp/HandlerProofs.v — the handler answers well-formed request streams exactly as the map,
   one reply per request in order, for every segmentation (C06); on arbitrary input it never
   panics and changes the store only through accepted SET/DEL commands (C10). *)
From BC Require Import Resp.Frame Resp.Conn Resp.Handler Resp.IntProofs Resp.FrameProofs Resp.RoundTrip Resp.Prefix Resp.Stream.
Open Scope Z_scope.

Lemma kv_get_set m k v k' : kv_get (aset m k v) k' = if beq k' k then Some v else kv_get m k'.
Proof. reflexivity. Qed.
Lemma kv_get_del m k k' : kv_get (adel m k) k' = if beq k' k then None else kv_get m k'.
Proof. reflexivity. Qed.

Lemma del_keys_ok : forall ks acc, forallb (fun k => is_utf8 k && small k) ks = true ->
  del_keys (map Bulk ks) acc = match rev acc ++ ks with [] => inr BadArguments | l => inl l end.
Proof.
  induction ks as [|k ks IH]; intros acc H; cbn [map del_keys].
  - rewrite app_nil_r. destruct acc as [|a acc]; [reflexivity|]. cbn [rev]. destruct (rev acc ++ [a]) eqn:E; [destruct (rev acc); discriminate|reflexivity].
  - cbn [forallb] in H. apply andb_true_iff in H as [Hk H]. apply andb_true_iff in Hk as [Hu _].
    cbn [as_string]. rewrite Hu. rewrite IH by exact H. cbn [rev]. rewrite <- app_assoc. reflexivity.
Qed.

Lemma cmd_of_frame_of_req r : wf_req r = true -> cmd_of (frame_of_req r) = inl (cmd_of_req r).
Proof.
  destruct r as [k|k v|ks]; cbn [wf_req frame_of_req cmd_of cmd_of_req]; intros H.
  - apply andb_true_iff in H as [Hu _]. change (beq s_GET s_DEL) with false. change (beq s_GET s_GET) with true. cbv iota.
    cbn [as_string]. rewrite Hu. reflexivity.
  - apply andb_true_iff in H as [H _]. apply andb_true_iff in H as [Hu _].
    change (beq s_SET s_DEL) with false. change (beq s_SET s_GET) with false. change (beq s_SET s_SET) with true. cbv iota.
    cbn [as_string]. rewrite Hu. reflexivity.
  - destruct ks as [|k ks]; [discriminate|]. apply andb_true_iff in H as [H _]. change (beq s_DEL s_DEL) with true. cbv iota.
    rewrite del_keys_ok by exact H. reflexivity.
Qed.

Lemma writable_req r : wf_req r = true -> writable (frame_of_req r) = true.
Proof.
  destruct r as [k|k v|ks]; cbn [wf_req frame_of_req writable]; intros H.
  - apply andb_true_iff in H as [_ Hs]. cbn [forallb writable_single]. unfold small in Hs. rewrite Hs. reflexivity.
  - apply andb_true_iff in H as [H Hv]. apply andb_true_iff in H as [_ Hk]. cbn [forallb writable_single]. unfold small in *. rewrite Hk, Hv. reflexivity.
  - destruct ks as [|k0 ks]; [discriminate|]. apply andb_true_iff in H as [H Hcnt]. apply andb_true_iff. split.
    + cbn [forallb writable_single]. change (Z.of_nat (length s_DEL) <=? i64_max) with true. cbn [andb].
      apply forallb_forall. intros f Hf. apply in_map_iff in Hf as (k & <- & Hk).
      apply (proj1 (forallb_forall _ _) H) in Hk. apply andb_true_iff in Hk as [_ Hs]. exact Hs.
    + cbn [length]. rewrite map_length. exact Hcnt.
Qed.

Lemma enc_req_ok r : wf_req r = true -> exists e, enc (frame_of_req r) = Ok e.
Proof. intros H. apply writable_encodes, writable_req, H. Qed.

(* replies are always encodable: the writer never meets a nested array *)
Definition reply_bytes (m : kv) (c : cmd) : bytes := match enc (snd (apply_cmd m c)) with Ok b => b | _ => [] end.

Lemma reply_encodes m c : enc (snd (apply_cmd m c)) = Ok (reply_bytes m c).
Proof.
  unfold reply_bytes. destruct c as [k|k v|ks]; cbn [apply_cmd snd].
  - destruct (kv_get m k); reflexivity.
  - reflexivity.
  - destruct (del_all m ks 0). reflexivity.
Qed.

Lemma handle_frame m f c rs out : cmd_of f = inl c ->
  handle m (RFrame f :: rs) out = handle (fst (apply_cmd m c)) rs (out ++ reply_bytes m c).
Proof.
  intros E. cbn [handle]. rewrite E. pose proof (reply_encodes m c) as Hb.
  destruct (apply_cmd m c) as [m' reply]. cbn [fst snd] in *. rewrite Hb. reflexivity.
Qed.

Fixpoint spec_out (m : kv) (rs : list req) : bytes * kv :=
  match rs with
  | [] => ([], m)
  | r :: rs' =>
    let '(m', reply) := apply_cmd m (cmd_of_req r) in
    let '(out, mf) := spec_out m' rs' in
    (match enc reply with Ok b => b | _ => [] end ++ out, mf)
  end.

Lemma spec_out_cons m r rs :
  spec_out m (r :: rs) =
  (reply_bytes m (cmd_of_req r) ++ fst (spec_out (fst (apply_cmd m (cmd_of_req r))) rs),
   snd (spec_out (fst (apply_cmd m (cmd_of_req r))) rs)).
Proof.
  cbn [spec_out]. unfold reply_bytes. destruct (apply_cmd m (cmd_of_req r)) as [m' reply].
  cbn [fst snd]. destruct (spec_out m' rs). reflexivity.
Qed.

Lemma handle_requests : forall rs m out, Forall (fun r => wf_req r = true) rs ->
  handle m (map RFrame (map frame_of_req rs) ++ [RClean]) out =
  (out ++ fst (spec_out m rs), snd (spec_out m rs), TClosed).
Proof.
  induction rs as [|r rs IH]; intros m out H; cbn [map app].
  - cbn. rewrite app_nil_r. reflexivity.
  - inversion H as [|? ? Hr Hrs]; subst.
    rewrite (handle_frame _ _ _ _ _ (cmd_of_frame_of_req r Hr)), IH, spec_out_cons by exact Hrs.
    cbn [fst snd]. rewrite app_assoc. reflexivity.
Qed.

Definition handler_from (m : kv) (segs : list bytes) : bytes * kv * term :=
  handle m (read_all (fixed Release) segs []) [].

Theorem handler_replies : forall rs es segs m, Forall (fun r => wf_req r = true) rs ->
  Forall2 (fun r e => enc (frame_of_req r) = Ok e) rs es -> concat segs = concat es ->
  handler_from m segs = (fst (spec_out m rs), snd (spec_out m rs), TClosed).
Proof.
  intros rs es segs m Hwf He Hcat. unfold handler_from.
  assert (HF : Forall2 encodes (map frame_of_req rs) es).
  { clear Hcat. induction He as [|r e rs es Hre He IH]; cbn [map]; [constructor|].
    inversion Hwf as [|? ? Hr Hrs]; subst. constructor; [split; [apply writable_req; exact Hr|exact Hre]|apply IH; exact Hrs]. }
  rewrite (read_all_stream Release segs (map frame_of_req rs) es [] HF Hcat).
  rewrite handle_requests by exact Hwf. reflexivity.
Qed.

Local Close Scope Z_scope.
Definition harmless (r : rres) : Prop := match r with RPanic | RAbort | RFuel => False | _ => True end.

Lemma parse_frame_shrinks b buf :
  match parse_frame (fixed b) buf with
  | Ok (Some (_, r)) => length r < length buf
  | Ok None | Err _ => True
  | _ => False
  end.
Proof.
  unfold parse_frame, check, parse.
  pose proof (check_d_tc b (blen buf) (v_depth (fixed b)) buf) as Hc.
  pose proof (parse_d_tc b (blen buf) (v_depth (fixed b)) buf) as Hp.
  destruct (check_d _ _ _ buf) as [[u r]|e| | |]; cbn in Hc; try contradiction.
  - destruct (parse_d _ _ _ buf) as [[f r']|e| | |]; cbn in Hp; try contradiction; [exact Hc|exact I].
  - destruct e; exact I.
Qed.

Lemma drain_shape b : forall fuel buf, (length buf < fuel)%nat ->
  exists fs, (exists b', drain (fixed b) fuel buf = (map RFrame fs, Some b')) \/
             (exists e, drain (fixed b) fuel buf = (map RFrame fs ++ [RErr e], None)).
Proof.
  induction fuel as [|fuel IH]; intros buf Hf; [lia|]. cbn [drain].
  pose proof (parse_frame_shrinks b buf) as Hs.
  destruct (parse_frame (fixed b) buf) as [[[f r]|]|e| | |]; try contradiction.
  - destruct (IH r ltac:(lia)) as (fs & [(b' & ->)|(e & ->)]); exists (f :: fs); cbn [map app]; [left|right]; eauto.
  - exists []. left. exists buf. reflexivity.
  - exists []. right. exists e. reflexivity.
Qed.

Lemma read_all_ends b : forall segs buf, exists fs r, read_all (fixed b) segs buf = map RFrame fs ++ [r] /\
  (r = RClean \/ r = RReset \/ exists e, r = RErr e).
Proof.
  induction segs as [|s segs IH]; intros buf; cbn [read_all].
  - destruct (drain_shape b (S (length buf)) buf ltac:(lia)) as (fs & [(b' & ->)|(e & ->)]).
    + exists fs, (match b' with [] => RClean | _ => RReset end). split; [reflexivity|]. destruct b'; auto.
    + exists fs, (RErr e). split; [reflexivity|]. eauto.
  - destruct (drain_shape b (S (length buf)) buf ltac:(lia)) as (fs & [(b' & ->)|(e & ->)]).
    + destruct (IH (b' ++ s)) as (fs' & r & E & Hr). exists (fs ++ fs'), r. rewrite E, map_app, app_assoc. auto.
    + exists fs, (RErr e). split; [reflexivity|]. eauto.
Qed.

Theorem read_all_harmless b : forall segs buf, Forall harmless (read_all (fixed b) segs buf).
Proof.
  intros segs buf. destruct (read_all_ends b segs buf) as (fs & r & -> & Hr).
  apply Forall_app. split.
  - apply Forall_forall. intros x Hx. apply in_map_iff in Hx as (f & <- & _). exact I.
  - constructor; [|constructor]. destruct Hr as [->|[->|(e & ->)]]; exact I.
Qed.

Lemma handle_no_panic : forall fs r m out, (r = RClean \/ r = RReset \/ exists e, r = RErr e) ->
  snd (handle m (map RFrame fs ++ [r]) out) <> TPanic.
Proof.
  induction fs as [|f fs IH]; intros r m out Hr; cbn [map app].
  - destruct Hr as [->|[->|(e & ->)]]; discriminate.
  - destruct (cmd_of f) as [c|e] eqn:E; [|cbn [handle]; rewrite E; discriminate].
    rewrite (handle_frame _ _ _ _ _ E). apply IH. exact Hr.
Qed.

Theorem handler_total m segs : snd (handler_from m segs) <> TPanic.
Proof.
  unfold handler_from. destruct (read_all_ends Release segs []) as (fs & r & -> & Hr).
  apply handle_no_panic. exact Hr.
Qed.

(* the store after a connection = the store before, with exactly the accepted commands applied, in order *)
Fixpoint accepted (rs : list rres) : list cmd :=
  match rs with
  | RFrame f :: rs' => match cmd_of f with inl c => c :: accepted rs' | inr _ => [] end
  | _ => []
  end.
Definition apply_all (m : kv) (cs : list cmd) : kv := fold_left (fun m c => fst (apply_cmd m c)) cs m.

Theorem handler_store_effect : forall rs m out, snd (fst (handle m rs out)) = apply_all m (accepted rs).
Proof.
  induction rs as [|x rs IH]; intros m out; [reflexivity|].
  destruct x; try reflexivity. cbn [accepted].
  destruct (cmd_of f) as [c|e] eqn:E; [|cbn [handle]; rewrite E; reflexivity].
  rewrite (handle_frame _ _ _ _ _ E), IH. reflexivity.
Qed.

(* GET never changes the store; only accepted SET and DEL do *)
Lemma get_readonly m k : fst (apply_cmd m (CGet k)) = m.
Proof. reflexivity. Qed.
