(* Resp/IntProofs.v — complete functional characterisation of the repaired integer reader
   [get_integer (fixed b)]: which suffixes it accepts, with which value, and what it answers
   otherwise.  Everything about C07's "reads numbers exactly" follows from [get_integer_spec]. *)
From BC Require Import Resp.Frame.
Open Scope Z_scope.

Definition is_digit (c : byte) : bool := (48 <=? c)%N && (c <=? 57)%N.
Definition dval (c : byte) : Z := Z.of_N c - 48.
Definition value (pos : bool) (bs : bytes) (init : Z) : Z :=
  fold_left (fun n c => acc pos n (dval c)) bs init.

(* What is left when scanning stops: the very last byte of the buffer (never examined), or a
   non-digit followed by at least one more byte. *)
Inductive tail3 : bytes -> Prop :=
| T_one y : tail3 [y]
| T_stop c y r : is_digit c = false -> tail3 (c :: y :: r).

Lemma value_cons pos x bs n : value pos (x :: bs) n = value pos bs (acc pos n (dval x)).
Proof. reflexivity. Qed.

Lemma value_app pos a b n : value pos (a ++ b) n = value pos b (value pos a n).
Proof. unfold value. apply fold_left_app. Qed.

Lemma digit_some c : is_digit c = true -> digit c = Some (dval c) /\ 0 <= dval c <= 9.
Proof.
  unfold digit, is_digit, dval. intros H. rewrite H. split; [reflexivity|].
  apply andb_true_iff in H as [H1 H2]. apply N.leb_le in H1, H2. lia.
Qed.
Lemma digit_none c : is_digit c = false -> digit c = None.
Proof. unfold digit, is_digit. intros ->. reflexivity. Qed.

Lemma app_tail3_nonnil bs l' : tail3 l' -> bs ++ l' <> [].
Proof. intros H E. apply app_eq_nil in E as [_ ->]. inversion H. Qed.

Lemma in_i64_iff z : in_i64 z = true <-> - 2 ^ 63 <= z <= 2 ^ 63 - 1.
Proof. unfold in_i64, i64_min, i64_max. rewrite andb_true_iff, !Z.leb_le. reflexivity. Qed.

Lemma in_i64_false z : in_i64 z = false <-> z < - 2 ^ 63 \/ 2 ^ 63 - 1 < z.
Proof. unfold in_i64, i64_min, i64_max. rewrite andb_false_iff, !Z.leb_gt. reflexivity. Qed.

Lemma pow18_lt : 10 ^ 18 < 2 ^ 63.
Proof. vm_compute. reflexivity. Qed.

Lemma small_in_i64 z : Z.abs z < 10 ^ 18 -> in_i64 z = true.
Proof. intros H. apply in_i64_iff. pose proof pow18_lt. lia. Qed.

(* the writer prints at most 20 digits; every magnitude of an i64 fits *)
Lemma i64_lt_pow20 n : Z.of_N n <= 2 ^ 63 -> (n < 10 ^ 20)%N.
Proof.
  intros H. assert (H20 : 2 ^ 63 < Z.of_N (10 ^ 20)) by (vm_compute; reflexivity). lia.
Qed.

Lemma acc_bound pos n d k : 0 <= k -> Z.abs n < 10 ^ k -> 0 <= d <= 9 -> Z.abs (acc pos n d) < 10 ^ (k + 1).
Proof.
  intros Hk Hn Hd. rewrite Z.pow_add_r by lia. change (10 ^ 1) with 10.
  unfold acc. destruct pos; lia.
Qed.

Lemma value_bound pos : forall bs n k, forallb is_digit bs = true -> 0 <= k -> Z.abs n < 10 ^ k ->
  Z.abs (value pos bs n) < 10 ^ (k + Z.of_nat (length bs)).
Proof.
  induction bs as [|x bs IH]; intros n k Hd Hk Hn; cbn [length].
  - rewrite Z.add_0_r. exact Hn.
  - apply andb_true_iff in Hd as [Hx Hd]. rewrite value_cons.
    replace (k + Z.of_nat (S (length bs))) with (k + 1 + Z.of_nat (length bs)) by lia.
    apply IH; [exact Hd|lia|]. apply acc_bound; [exact Hk|exact Hn|]. apply digit_some. exact Hx.
Qed.

Definition sign_ok (pos : bool) (n : Z) : Prop := if pos then 0 <= n else n <= 0.

Lemma acc_sign pos n d : sign_ok pos n -> 0 <= d <= 9 -> sign_ok pos (acc pos n d).
Proof. unfold sign_ok, acc. destruct pos; lia. Qed.

(* once outside the range, or about to leave it by the multiplication, a further digit only moves away *)
Lemma acc_out_of_range pos n d : sign_ok pos n -> 0 <= d <= 9 ->
  in_i64 n = false \/ in_i64 (n * 10) = false -> in_i64 (acc pos n d) = false.
Proof. rewrite !in_i64_false. unfold sign_ok, acc. destruct pos; lia. Qed.

Lemma value_sign pos : forall bs n, forallb is_digit bs = true -> sign_ok pos n -> sign_ok pos (value pos bs n).
Proof.
  induction bs as [|x bs IH]; intros n Hd Hs; [exact Hs|].
  apply andb_true_iff in Hd as [Hx Hd].
  rewrite value_cons. apply IH; [exact Hd|]. apply acc_sign; [exact Hs|]. apply digit_some; exact Hx.
Qed.

Lemma value_out_of_range pos : forall bs n, forallb is_digit bs = true -> sign_ok pos n ->
  in_i64 n = false -> in_i64 (value pos bs n) = false.
Proof.
  induction bs as [|x bs IH]; intros n Hd Hs Hn; [exact Hn|].
  apply andb_true_iff in Hd as [Hx Hd]. destruct (digit_some x Hx) as [_ Hr].
  rewrite value_cons. apply IH; [exact Hd|apply acc_sign; assumption|apply acc_out_of_range; auto].
Qed.

Lemma unchecked_step b pos budget num x tl c : tl <> [] ->
  unchecked b pos budget num (x :: tl) c =
  match budget with
  | Some 0%N => Ph1 num (x :: tl) c
  | _ => match digit x with
         | None => Ph1 num (x :: tl) c
         | Some d =>
           let n' := acc pos num d in
           let budget' := match budget with Some k => Some (N.pred k) | None => None end in
           if in_i64 n' then unchecked b pos budget' n' tl (c + 1)
           else match b with
                | Debug => Ph1Panic
                | Release => unchecked b pos budget' (wrap64 n') tl (c + 1)
                end
         end
  end.
Proof. destruct tl; [congruence|reflexivity]. Qed.

Lemma unchecked_tail3 b pos budget num l c : tail3 l -> unchecked b pos budget num l c = Ph1 num l c.
Proof.
  intros [y|x y r Hx]; [reflexivity|]. rewrite unchecked_step, (digit_none _ Hx) by discriminate.
  destruct budget as [[|k]|]; reflexivity.
Qed.

(* With [k] digits of budget left and fewer than [18 - k] taken so far, nothing can overflow: the
   phase takes [k] digits or all of them, in either build. *)
Lemma unchecked_fwd b pos : forall bs l' (k : nat) n c,
  forallb is_digit bs = true -> tail3 l' -> (k <= 18)%nat -> Z.abs n < 10 ^ (18 - Z.of_nat k) ->
  unchecked b pos (Some (N.of_nat k)) n (bs ++ l') c =
    Ph1 (value pos (firstn k bs) n) (skipn k bs ++ l') (c + N.of_nat (Nat.min k (length bs)))%N.
Proof.
  induction bs as [|x bs IH]; intros l' k n c Hd Ht Hk Hn.
  - rewrite firstn_nil, skipn_nil, Nat.min_0_r, N.add_0_r. apply unchecked_tail3. exact Ht.
  - apply andb_true_iff in Hd as [Hx Hd]. cbn [app].
    rewrite unchecked_step by (apply app_tail3_nonnil; exact Ht).
    destruct k as [|k]; [rewrite N.add_0_r; reflexivity|].
    destruct (digit_some x Hx) as [-> Hr]. cbv zeta.
    assert (Hb : Z.abs (acc pos n (dval x)) < 10 ^ (18 - Z.of_nat k)).
    { replace (18 - Z.of_nat k) with (18 - Z.of_nat (S k) + 1) by lia. apply acc_bound; [lia|exact Hn|exact Hr]. }
    rewrite small_in_i64 by (eapply Z.lt_le_trans; [exact Hb|apply Z.pow_le_mono_r; lia]).
    rewrite Nat2N.inj_succ, N.pred_succ. destruct (N.succ (N.of_nat k)) eqn:E; [lia|].
    rewrite IH by (assumption || lia). rewrite <- value_cons. cbn [firstn skipn length Nat.min]. f_equal. lia.
Qed.

Lemma checked_step pos num x tl c : tl <> [] ->
  checked pos num (x :: tl) c =
  match digit x with
  | None => (num, x :: tl, c)
  | Some d =>
    let num' := match num with
                | None => None
                | Some n => if in_i64 (n * 10) && in_i64 (acc pos n d) then Some (acc pos n d) else None
                end in
    checked pos num' tl (c + 1)
  end.
Proof. destruct tl; [congruence|reflexivity]. Qed.

Lemma checked_tail3 pos num l c : tail3 l -> checked pos num l c = (num, l, c).
Proof.
  intros [y|x y r Hx]; [reflexivity|]. rewrite checked_step, (digit_none _ Hx) by discriminate. reflexivity.
Qed.

Lemma checked_none_fwd pos : forall bs l' c, forallb is_digit bs = true -> tail3 l' ->
  checked pos None (bs ++ l') c = (None, l', (c + N.of_nat (length bs))%N).
Proof.
  induction bs as [|x bs IH]; intros l' c Hd Ht.
  - cbn [app length N.of_nat]. rewrite N.add_0_r. apply checked_tail3. exact Ht.
  - apply andb_true_iff in Hd as [Hx Hd]. cbn [app]. rewrite checked_step by (apply app_tail3_nonnil; exact Ht).
    destruct (digit_some x Hx) as [-> _]. cbv zeta. rewrite IH by assumption. cbn [length]. f_equal; lia.
Qed.

Lemma checked_fwd pos : forall bs l' n c, forallb is_digit bs = true -> tail3 l' -> sign_ok pos n ->
  in_i64 n = true ->
  checked pos (Some n) (bs ++ l') c =
    ((if in_i64 (value pos bs n) then Some (value pos bs n) else None), l', (c + N.of_nat (length bs))%N).
Proof.
  induction bs as [|x bs IH]; intros l' n c Hd Ht Hs Hn.
  - cbn [app length N.of_nat value fold_left]. rewrite N.add_0_r, Hn. apply checked_tail3. exact Ht.
  - apply andb_true_iff in Hd as [Hx Hd]. cbn [app]. rewrite checked_step by (apply app_tail3_nonnil; exact Ht).
    destruct (digit_some x Hx) as [-> Hr]. cbv zeta. rewrite value_cons. cbn [length].
    pose proof (acc_sign pos n _ Hs Hr) as Hs'.
    destruct (in_i64 (n * 10) && in_i64 (acc pos n (dval x))) eqn:Hin.
    + apply andb_true_iff in Hin as [_ Hin]. rewrite IH by assumption. f_equal; lia.
    + rewrite checked_none_fwd by assumption. rewrite (value_out_of_range pos bs _ Hd Hs').
      * f_equal; lia.
      * apply andb_false_iff in Hin as [Hin|Hin]; [|exact Hin]. apply acc_out_of_range; auto.
Qed.

Lemma digits_decomp : forall l, l <> [] -> exists bs l', l = bs ++ l' /\ forallb is_digit bs = true /\ tail3 l'.
Proof.
  induction l as [|x l IH]; intros Hne; [congruence|].
  destruct l as [|y l'].
  - exists [], [x]. repeat split. constructor.
  - destruct (is_digit x) eqn:Hx.
    + destruct IH as (bs & t & E & Hd & Ht); [discriminate|].
      exists (x :: bs), t. cbn [app forallb]. rewrite E, Hx, Hd. repeat split. exact Ht.
    + exists [], (x :: y :: l'). repeat split. constructor. exact Hx.
Qed.

Definition sign_of (l : bytes) : bool * bytes :=
  match l with
  | c :: tl => if (c =? 45)%N then (false, tl) else if (c =? 43)%N then (true, tl) else (true, l)
  | [] => (true, [])
  end.

Lemma sign_of_app l pos l1 t : sign_of l = (pos, l1) -> l1 <> [] -> sign_of (l ++ t) = (pos, l1 ++ t).
Proof.
  destruct l as [|c tl]; cbn [sign_of app]; [intros H; inversion H; congruence|].
  destruct (c =? 45)%N; [intros H; inversion H; reflexivity|].
  destruct (c =? 43)%N; intros H; inversion H; reflexivity.
Qed.

Definition int_result (pos : bool) (bs l' : bytes) : outcome (Z * bytes) :=
  match l' with
  | c :: _ :: r =>
    if match bs with [] => true | _ => false end || negb (c =? 13)%N then Err NotInteger
    else if in_i64 (value pos bs 0) then Ok (value pos bs 0, r) else Err NotInteger
  | _ => Err Incomplete
  end.

Lemma get_integer_signed v tot c tl : get_integer v tot (c :: tl) =
  let '(pos, l1) := sign_of (c :: tl) in
  match l1 with
  | [] => if v_sign_guard v then Err Incomplete else Panic
  | _ =>
    match unchecked (v_build v) pos (if v_rel_digits v then budget_fixed else budget_pinned (tot - blen l1)%N) 0 l1 0 with
    | Ph1Panic => Panic
    | Ph1 n1 l2 c1 =>
      let '(num, l3, c2) := checked pos (Some n1) l2 c1 in
      match l3 with
      | c' :: _ :: rest =>
        if (c2 =? 0)%N || negb (c' =? 13)%N then Err NotInteger
        else match num with Some x => Ok (x, rest) | None => Err NotInteger end
      | _ => Err Incomplete
      end
    end
  end.
Proof.
  unfold get_integer, sign_of. destruct (c =? 45)%N; [reflexivity|]. destruct (c =? 43)%N; reflexivity.
Qed.

Theorem get_integer_spec b tot l pos bs l' :
  sign_of l = (pos, bs ++ l') -> forallb is_digit bs = true -> tail3 l' ->
  get_integer (fixed b) tot l = int_result pos bs l'.
Proof.
  intros Hs Hd Ht. pose proof (app_tail3_nonnil bs l' Ht) as Hne.
  destruct l as [|c tl]; [inversion Hs; congruence|].
  rewrite get_integer_signed, Hs. cbn [v_sign_guard v_rel_digits v_build fixed].
  destruct (bs ++ l') as [|z zs] eqn:E; [congruence|]. rewrite <- E. clear z zs E Hne Hs.
  (* The first 18 digits cannot overflow ([unchecked_fwd]); their value [n1] is below 10^18, so the
     checked phase starts in range and reads the rest ([checked_fwd]); [value_app] joins the two. *)
  unfold budget_fixed. change 18%N with (N.of_nat 18).
  rewrite (unchecked_fwd b pos bs l' 18 0 0%N Hd Ht) by (cbn; lia).
  set (n1 := value pos (firstn 18 bs) 0).
  rewrite <- (firstn_skipn 18 bs), forallb_app in Hd. apply andb_true_iff in Hd as [Hd1 Hd2].
  assert (Hb : Z.abs n1 < 10 ^ 18).
  { eapply Z.lt_le_trans; [apply (value_bound pos _ 0 0 Hd1); cbn; lia|].
    apply Z.pow_le_mono_r; [lia|]. pose proof (firstn_le_length 18 bs). lia. }
  assert (Hs1 : sign_ok pos n1) by (apply value_sign; [exact Hd1|destruct pos; cbn; lia]).
  rewrite (checked_fwd pos (skipn 18 bs) l' n1 _ Hd2 Ht Hs1 (small_in_i64 _ Hb)).
  unfold n1. rewrite <- value_app, firstn_skipn.
  replace (0 + N.of_nat (Nat.min 18 (length bs)) + N.of_nat (length (skipn 18 bs)))%N with (N.of_nat (length bs))
    by (rewrite skipn_length; lia).
  unfold int_result. destruct Ht as [y|c' y r Hc']; [reflexivity|].
  destruct bs as [|b0 bs0]; [reflexivity|].
  replace (N.of_nat (length (b0 :: bs0)) =? 0)%N with false by (symmetry; apply N.eqb_neq; cbn [length]; lia).
  cbn [orb]. destruct (negb (c' =? 13)%N); [reflexivity|].
  destruct (in_i64 (value pos (b0 :: bs0) 0)); reflexivity.
Qed.

Lemma get_integer_sign_only b tot l pos : sign_of l = (pos, []) -> get_integer (fixed b) tot l = Err Incomplete.
Proof. intros Hs. destruct l as [|c tl]; [reflexivity|]. rewrite get_integer_signed, Hs. reflexivity. Qed.

(* The decomposition [get_integer_spec] asks for always exists, and does not depend on the build or
   the position: the reader is characterised on EVERY suffix. *)
Lemma get_integer_view l : exists pos bs l', sign_of l = (pos, bs ++ l') /\ forallb is_digit bs = true /\
  (bs ++ l' = [] \/ tail3 l') /\ forall b tot, get_integer (fixed b) tot l = int_result pos bs l'.
Proof.
  destruct (sign_of l) as [pos [|x rest]] eqn:Hs.
  - exists pos, [], []. repeat split; [left; reflexivity|]. intros b tot. apply (get_integer_sign_only b tot l pos Hs).
  - destruct (digits_decomp (x :: rest)) as (bs & l' & E & Hd & Ht); [discriminate|].
    exists pos, bs, l'. rewrite <- E. repeat split; [exact Hd|right; exact Ht|]. intros b tot.
    apply get_integer_spec; [rewrite Hs, E; reflexivity|exact Hd|exact Ht].
Qed.

Theorem get_integer_total b tot l :
  get_integer (fixed b) tot l <> Panic /\ get_integer (fixed b) tot l <> Abort /\ get_integer (fixed b) tot l <> OutOfFuel.
Proof.
  destruct (get_integer_view l) as (pos & bs & l' & _ & _ & _ & ->). unfold int_result.
  destruct l' as [|c0 [|c1 r]]; try (repeat split; discriminate).
  destruct (_ || _); [repeat split; discriminate|].
  destruct (in_i64 _); repeat split; discriminate.
Qed.

Theorem get_integer_build_irrelevant tot l : get_integer (fixed Debug) tot l = get_integer (fixed Release) tot l.
Proof. destruct (get_integer_view l) as (pos & bs & l' & _ & _ & _ & H). rewrite !H. reflexivity. Qed.

(* Exactness: whatever is accepted is a sign, a non-empty run of digits whose signed decimal
   value is the result and lies in i64, then CR and one more byte. *)
Theorem get_integer_exact b tot l z r :
  get_integer (fixed b) tot l = Ok (z, r) ->
  exists pos bs x, sign_of l = (pos, bs ++ 13%N :: x :: r) /\ bs <> [] /\ forallb is_digit bs = true /\
                   z = value pos bs 0 /\ in_i64 z = true.
Proof.
  destruct (get_integer_view l) as (pos & bs & l' & Hs & Hd & _ & ->). unfold int_result. intros H.
  destruct l' as [|c0 [|c1 r']]; try discriminate.
  destruct bs as [|b0 bs0]; [discriminate|]. cbn [orb] in H.
  destruct (c0 =? 13)%N eqn:Hc; [|discriminate]. cbn [negb] in H.
  destruct (in_i64 (value pos (b0 :: bs0) 0)) eqn:Hin; [|discriminate].
  inversion H; subst. apply N.eqb_eq in Hc. subst c0.
  exists pos, (b0 :: bs0), c1. repeat split; auto. discriminate.
Qed.

(* Converse: a well-formed number is accepted exactly when it fits in i64. *)
Theorem get_integer_accepts b tot l pos bs x r :
  sign_of l = (pos, bs ++ 13%N :: x :: r) -> bs <> [] -> forallb is_digit bs = true ->
  get_integer (fixed b) tot l =
    if in_i64 (value pos bs 0) then Ok (value pos bs 0, r) else Err NotInteger.
Proof.
  intros Hs Hne Hd. rewrite (get_integer_spec b tot l pos bs (13%N :: x :: r) Hs Hd) by (constructor; reflexivity).
  unfold int_result. destruct bs; [congruence|]. reflexivity.
Qed.
