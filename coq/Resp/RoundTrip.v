(* Resp/RoundTrip.v — what Connection::write_frame emits is read back as the same frame, with any
   bytes following it left untouched (C08, first clause). *)
From BC Require Import Resp.Frame Resp.IntProofs Resp.FrameProofs.
Open Scope Z_scope.

Definition no_crlf (s : bytes) : bool := forallb (fun c => negb (c =? 13)%N && negb (c =? 10)%N) s.

Lemma ascii_digit_is_digit d : (d < 10)%N -> is_digit (ascii_digit d) = true /\ dval (ascii_digit d) = Z.of_N d.
Proof.
  intros H. unfold is_digit, ascii_digit, dval. split.
  - apply andb_true_iff; split; apply N.leb_le; lia.
  - lia.
Qed.

Lemma dec_digits_app : forall fuel n a, dec_digits_fuel fuel n a = dec_digits_fuel fuel n [] ++ a.
Proof.
  induction fuel as [|f IH]; intros n a; [reflexivity|]. cbn [dec_digits_fuel].
  destruct (n <? 10)%N; [reflexivity|]. rewrite IH, (IH _ [_]), <- app_assoc. reflexivity.
Qed.

(* the digits, most significant first: those of [n / 10], then the last one *)
Lemma dec_digits_snoc fuel n : dec_digits_fuel (S fuel) n [] =
  (if (n <? 10)%N then [] else dec_digits_fuel fuel (n / 10) []) ++ [ascii_digit (n mod 10)].
Proof. cbn [dec_digits_fuel]. destruct (n <? 10)%N; [reflexivity|]. apply dec_digits_app. Qed.

Lemma dec_digits_digits : forall fuel n, forallb is_digit (dec_digits_fuel fuel n []) = true.
Proof.
  induction fuel as [|f IH]; intros n; [reflexivity|]. rewrite dec_digits_snoc, forallb_app. cbn [forallb].
  destruct (ascii_digit_is_digit (n mod 10)) as [-> _]; [apply N.mod_lt; lia|].
  destruct (n <? 10)%N; [reflexivity|]. rewrite IH. reflexivity.
Qed.

Lemma dec_digits_value pos : forall fuel n, (n < 10 ^ N.of_nat fuel)%N ->
  value pos (dec_digits_fuel fuel n []) 0 = if pos then Z.of_N n else - Z.of_N n.
Proof.
  induction fuel as [|f IH]; intros n Hn.
  - assert (n = 0%N) by (cbn in Hn; lia). subst n. destruct pos; reflexivity.
  - rewrite dec_digits_snoc, value_app. cbn [value fold_left].
    destruct (ascii_digit_is_digit (n mod 10)) as [_ ->]; [apply N.mod_lt; lia|].
    pose proof (N.div_mod n 10 ltac:(lia)) as Hdm. destruct (n <? 10)%N eqn:E.
    + apply N.ltb_lt in E. rewrite N.mod_small by exact E. unfold acc. destruct pos; reflexivity.
    + apply N.ltb_ge in E. fold (value pos (dec_digits_fuel f (n / 10) []) 0). rewrite IH.
      * unfold acc. destruct pos; lia.
      * apply N.div_lt_upper_bound; [lia|]. rewrite Nat2N.inj_succ, N.pow_succ_r' in Hn. exact Hn.
Qed.

Lemma dec_N_digits n : forallb is_digit (dec_N n) = true.
Proof. apply dec_digits_digits. Qed.

Lemma dec_N_nonnil n : dec_N n <> [].
Proof. unfold dec_N. rewrite dec_digits_snoc. intros E. symmetry in E. exact (app_cons_not_nil _ _ _ E). Qed.

Lemma dec_N_value pos n : (n < 10 ^ 20)%N -> value pos (dec_N n) 0 = if pos then Z.of_N n else - Z.of_N n.
Proof. apply (dec_digits_value pos 20). Qed.

Lemma digit_not_sign d : is_digit d = true -> (d =? 45)%N = false /\ (d =? 43)%N = false.
Proof.
  unfold is_digit. intros H. apply andb_true_iff in H as [H1 H2]. apply N.leb_le in H1, H2.
  split; apply N.eqb_neq; lia.
Qed.

Lemma sign_of_digits bs rest : bs <> [] -> forallb is_digit bs = true -> sign_of (bs ++ rest) = (true, bs ++ rest).
Proof.
  destruct bs as [|d bs]; [congruence|]. intros _ H. apply andb_true_iff in H as [H _].
  cbn [app sign_of]. destruct (digit_not_sign d H) as [-> ->]. reflexivity.
Qed.

Lemma sign_of_dec_N n rest : sign_of (dec_N n ++ rest) = (true, dec_N n ++ rest).
Proof. apply sign_of_digits; [apply dec_N_nonnil|apply dec_N_digits]. Qed.

Lemma get_integer_dec_N b tot n x rest : (Z.of_N n <= i64_max) ->
  get_integer (fixed b) tot (dec_N n ++ 13%N :: x :: rest) = Ok (Z.of_N n, rest).
Proof.
  intros Hn. unfold i64_max in Hn.
  rewrite (get_integer_accepts b tot _ true (dec_N n) x rest (sign_of_dec_N n _) (dec_N_nonnil n) (dec_N_digits n)).
  rewrite dec_N_value by (apply i64_lt_pow20; lia). rewrite (proj2 (in_i64_iff _)) by lia. reflexivity.
Qed.

Lemma get_integer_dec_Z b tot z x rest : in_i64 z = true ->
  get_integer (fixed b) tot (dec_Z z ++ 13%N :: x :: rest) = Ok (z, rest).
Proof.
  intros Hz. apply in_i64_iff in Hz. unfold dec_Z. destruct (Z.ltb_spec z 0) as [E|E].
  - cbn [app].
    rewrite (get_integer_accepts b tot (45%N :: _) false (dec_N (Z.to_N (- z))) x rest eq_refl (dec_N_nonnil _) (dec_N_digits _)).
    rewrite dec_N_value by (apply i64_lt_pow20; lia). rewrite Z2N.id, Z.opp_involutive by lia.
    rewrite (proj2 (in_i64_iff _)) by lia. reflexivity.
  - rewrite <- (Z2N.id z) at 2 by lia. apply get_integer_dec_N. unfold i64_max. lia.
Qed.

Lemma get_line_acc_skip : forall s t acc, no_crlf s = true -> get_line_acc (s ++ t) acc = get_line_acc t (rev s ++ acc).
Proof.
  induction s as [|c s IH]; intros t acc H; [reflexivity|].
  apply andb_true_iff in H as [Hc H]. apply andb_true_iff in Hc as [H13 H10]. apply negb_true_iff in H13, H10.
  cbn [rev app]. rewrite <- app_assoc. cbn [app]. rewrite <- (IH t (c :: acc) H).
  destruct (s ++ t) as [|y tl] eqn:E.
  - apply app_eq_nil in E as [-> ->]. reflexivity.
  - rewrite get_line_acc_step, H13, H10. reflexivity.
Qed.

Lemma get_line_fwd s x rest : no_crlf s = true -> get_line (s ++ 13%N :: x :: rest) = Ok (s, rest).
Proof.
  intros H. unfold get_line. rewrite get_line_acc_skip by exact H. cbn.
  rewrite app_nil_r, rev_involutive. reflexivity.
Qed.

Definition writable_single (f : frame) : bool :=
  match f with
  | Simple s | Error s => is_utf8 s && no_crlf s
  | Integer z => in_i64 z
  | Bulk b => Z.of_nat (length b) <=? i64_max
  | Null => true
  | Array _ => false
  end.
Definition writable (f : frame) : bool :=
  match f with
  | Array items => forallb writable_single items && (Z.of_nat (length items) <=? i64_max)
  | _ => writable_single f
  end.

Lemma blen_Z (l : bytes) : Z.of_N (blen l) = Z.of_nat (length l).
Proof. unfold blen. lia. Qed.

Lemma single_roundtrip b tot f bs rest d : writable_single f = true -> enc_single f = Ok bs ->
  parse_d (fixed b) tot d (bs ++ rest) = Ok (f, rest).
Proof.
  intros Hw He.
  destruct f as [s|s|z|bb|items|]; cbn [writable_single] in Hw; cbn [enc_single] in He; inversion He; subst; clear He.
  all: cbn [app]; repeat (rewrite <- app_assoc; cbn [app]); cbn [crlf app].
  - apply andb_true_iff in Hw as [Hu Hn].
    rewrite parse_d_simple, (get_line_fwd s 10%N rest Hn). cbn [lift]. rewrite Hu. reflexivity.
  - apply andb_true_iff in Hw as [Hu Hn].
    rewrite parse_d_error, (get_line_fwd s 10%N rest Hn). cbn [lift]. rewrite Hu. reflexivity.
  - rewrite parse_d_int, (get_integer_dec_Z b tot z 10%N rest Hw). reflexivity.
  - apply Z.leb_le in Hw. rewrite parse_d_bulk by apply sign_of_dec_N.
    rewrite (get_integer_dec_N b tot (blen bb) 10%N) by (rewrite blen_Z; exact Hw). cbn [lift]. rewrite blen_Z.
    replace (_ <? 0) with false by (symmetry; apply Z.ltb_ge; lia).
    replace (_ <? _ + 2) with false by (symmetry; apply Z.ltb_ge; rewrite app_length; cbn [length]; lia).
    rewrite Nat2Z.id, firstn_app_exact.
    replace (Z.to_nat (Z.of_nat (length bb) + 2)) with (length (bb ++ [13; 10]%N)) by (rewrite app_length; cbn [length]; lia).
    change (bb ++ 13%N :: 10%N :: rest) with (bb ++ [13; 10]%N ++ rest). rewrite app_assoc, skipn_app_exact. reflexivity.
  - rewrite parse_d_null. change (45%N :: 49%N :: 13%N :: 10%N :: rest) with ([45; 49]%N ++ 13%N :: 10%N :: rest).
    rewrite get_line_fwd by reflexivity. reflexivity.
Qed.

Lemma enc_items_cons f items bs : enc_items (f :: items) = Ok bs ->
  exists bf bi, enc_single f = Ok bf /\ enc_items items = Ok bi /\ bs = bf ++ bi.
Proof.
  cbn [enc_items]. destruct (enc_single f) as [bf| | | |]; try discriminate.
  destruct (enc_items items) as [bi| | | |]; try discriminate. intros H. inversion H. eauto.
Qed.

Lemma items_roundtrip b tot d : forall items bs rest acc fuel,
  forallb writable_single items = true -> enc_items items = Ok bs -> (length items <= fuel)%nat ->
  items_loop (parse_d (fixed b) tot d) fuel (Z.of_nat (length items)) (bs ++ rest) acc = Ok (rev acc ++ items, rest).
Proof.
  induction items as [|f items IH]; intros bs rest acc fuel Hw He Hf.
  - inversion He; subst. rewrite items_loop_done by (cbn; lia). rewrite app_nil_r. reflexivity.
  - apply andb_true_iff in Hw as [Hwf Hw]. apply enc_items_cons in He as (bf & bi & Ef & Ei & ->).
    cbn [length] in *. destruct fuel as [|fuel]; [lia|]. rewrite items_loop_pos by lia.
    rewrite <- app_assoc, (single_roundtrip b tot f bf _ d Hwf Ef). cbn [lift].
    replace (Z.of_nat (S (length items)) - 1) with (Z.of_nat (length items)) by lia.
    rewrite (IH bi rest (f :: acc) fuel Hw Ei) by lia. cbn [rev]. rewrite <- app_assoc. reflexivity.
Qed.

Lemma enc_single_nonnil f bs : enc_single f = Ok bs -> bs <> [].
Proof. destruct f; cbn [enc_single]; intros H; inversion H; discriminate. Qed.

Lemma enc_items_length : forall items bs, enc_items items = Ok bs -> (length items <= length bs)%nat.
Proof.
  induction items as [|f items IH]; intros bs H; [cbn; lia|].
  apply enc_items_cons in H as (bf & bi & Ef & Ei & ->). specialize (IH bi Ei).
  apply enc_single_nonnil in Ef. destruct bf; [congruence|]. rewrite app_length. cbn [length]. lia.
Qed.

(* an array needs one level of budget, its elements none *)
Lemma enc_parse_d b tot d f bs rest : writable f = true -> enc f = Ok bs ->
  parse_d (fixed b) tot (S d) (bs ++ rest) = Ok (f, rest).
Proof.
  intros Hw He. destruct f as [s|s|z|bb|items|]; try (apply single_roundtrip; assumption).
  cbn [writable] in Hw. apply andb_true_iff in Hw as [Hw Hn]. apply Z.leb_le in Hn.
  cbn [enc] in He. destruct (enc_items items) as [bi| | | |] eqn:Ei; try discriminate. inversion He; subst. clear He.
  cbn [app]. rewrite <- app_assoc. cbn [app]. rewrite parse_d_array.
  rewrite (get_integer_dec_N b tot _ 10%N) by lia. cbn [lift]. rewrite nat_N_Z.
  replace (_ <? 0) with false by (symmetry; apply Z.ltb_ge; lia).
  pose proof (enc_items_length items bi Ei) as Hl.
  rewrite (items_roundtrip b tot d items bi rest [] _ Hw Ei) by (rewrite app_length; lia). reflexivity.
Qed.

Theorem roundtrip b f bs rest : writable f = true -> enc f = Ok bs ->
  parse (fixed b) (bs ++ rest) = Ok (f, rest) /\ check (fixed b) (bs ++ rest) = Ok (tt, rest).
Proof.
  intros Hw He. pose proof (enc_parse_d b (blen (bs ++ rest)) 31 f bs rest Hw He) as Hp.
  split; [exact Hp|exact (parse_check _ _ _ _ _ _ Hp)].
Qed.

Lemma writable_single_encodes g : writable_single g = true -> exists bs, enc_single g = Ok bs.
Proof. destruct g; cbn [enc_single]; eauto. discriminate. Qed.

Lemma writable_items_encode : forall items, forallb writable_single items = true -> exists bi, enc_items items = Ok bi.
Proof.
  induction items as [|g items IH]; intros Hw; [cbn; eauto|]. apply andb_true_iff in Hw as [Hg Hw].
  destruct (writable_single_encodes g Hg) as (bg & Eg). destruct (IH Hw) as (bi & Ei).
  cbn [enc_items]. rewrite Eg, Ei. eauto.
Qed.

(* the writer never panics on a writable frame: every writable frame has an encoding *)
Theorem writable_encodes f : writable f = true -> exists bs, enc f = Ok bs.
Proof.
  destruct f as [s|s|z|bb|items|]; try apply writable_single_encodes.
  cbn [writable enc]. intros Hw. apply andb_true_iff in Hw as [Hw _].
  destruct (writable_items_encode items Hw) as (bi & ->). eauto.
Qed.
